(* C16: a replacement chain in which no separator occurs translates a rendered format field by field. *)
From Coq Require Import ZArith List Bool.
From Tdda Require Import Base.Sexp Base.Str Generated.Consts Serial.DateFmt.
Import ListNotations.
Open Scope Z_scope.

Definition chain_blocks (chain : list (str * str)) (c : Z) : bool :=
  forallb (fun p => negb (existsb (Z.eqb c) (fst p))) chain.

Lemma apply_chain_blocked chain c : chain_blocks chain c = true ->
  forall a b, apply_chain chain (a ++ c :: b) = apply_chain chain a ++ c :: apply_chain chain b.
Proof.
  unfold apply_chain, chain_blocks. induction chain as [|[o n] chain IH]; intros H a b; [reflexivity|].
  cbn [forallb fst] in H. apply andb_true_iff in H as [H1 H2]. apply negb_true_iff in H1.
  cbn [fold_left fst snd]. rewrite replace_blocked by exact H1. apply IH. exact H2.
Qed.

Lemma chain_render chain (f g : token -> str) :
  (forall s, chain_blocks chain (sep_char s) = true) -> (forall t, apply_chain chain (f t) = g t) ->
  forall t rest, apply_chain chain (render f t rest) = render g t rest.
Proof.
  intros Hs Hf t rest. revert t. induction rest as [|[s t'] r IH]; intro t; cbn [render]; [apply Hf|].
  rewrite apply_chain_blocked, Hf, IH by apply Hs. reflexivity.
Qed.

Lemma render_without c (f : token -> str) :
  (forall s, sep_char s <> c) -> (forall t, existsb (Z.eqb c) (f t) = false) ->
  forall t rest, existsb (Z.eqb c) (render f t rest) = false.
Proof.
  intros Hs Hf t rest. revert t. induction rest as [|[s t'] r IH]; intro t; cbn [render]; [apply Hf|].
  rewrite existsb_app, Hf. cbn [existsb]. rewrite IH, (proj2 (Z.eqb_neq c (sep_char s))); [reflexivity|].
  intro E. exact (Hs s (eq_sym E)).
Qed.

Lemma render_nonempty (f : token -> str) t rest : f t <> [] -> render f t rest <> [].
Proof. intro H. destruct rest as [|[s t'] r]; cbn [render]; [exact H|]. destruct (f t); [congruence|discriminate]. Qed.

(* csvw_replace_chain is the table regenerated from csvw.py (Generated/Consts.v); the two facts about it are read off
   by evaluation, one case for each separator and each field *)
Lemma sep_blocks s : chain_blocks csvw_replace_chain (sep_char s) = true.
Proof. destruct s; vm_compute; reflexivity. Qed.

Lemma token_translates t : apply_chain csvw_replace_chain (csvw_of t) = strf_of t.
Proof. destruct t; vm_compute; reflexivity. Qed.

Lemma translate_empty : translate [] = s_ISO8601.
Proof. reflexivity. Qed.
