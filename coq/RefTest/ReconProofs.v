(* C15: what a failed text or binary assertion leaves behind.
   The post-processed pair written after a failed comparison (FilesComparison.reconstruct) differs exactly on
   the lines where unexcused differences were found: removed lines and ignored differences become one marker line
   that is the same on both sides, equal lines are copied, and only a kept, differing, un-ignored pair of lines
   appears differently in the two files.  Then: the offset reported for binary files, and which files are written. *)
From Coq Require Import ZArith List Bool Lia.
From Tdda Require Import Base.ListFacts Base.Sexp Base.Str RefTest.CheckStrings RefTest.CheckStringsProofs
  RefTest.Artefacts.
Import ListNotations.

(* the lines of l that are not removed, with their original indices (the first line of l has index i) *)
Fixpoint kept_lines (mask : list bool) (l : list str) (i : nat) : list (nat * str) :=
  match l with
  | [] => []
  | x :: l' => if nth_mask mask i then kept_lines mask l' (S i) else (i, x) :: kept_lines mask l' (S i)
  end.

(* the places where the two written files differ, in order *)
Definition diffpairs (p : list str * list str) : list (str * str) :=
  filter (fun q => negb (str_eqb (fst q) (snd q))) (combine (fst p) (snd p)).

(* a pair of compared lines that is shown as a difference: the lines differ and neither is marked ignorable *)
Definition shown (aign eign : list nat) (q : (nat * str) * (nat * str)) : bool :=
  negb (str_eqb (snd (fst q)) (snd (snd q))) && negb (mem_nat (fst (fst q)) aign || mem_nat (fst (snd q)) eign).

Definition differ_exactly (r : list str * list str) (S : list (str * str)) : Prop :=
  length (fst r) = length (snd r) /\ diffpairs r = S.

Lemma differ_exactly_cons x y r S :
  differ_exactly r S -> differ_exactly ([x] ++ fst r, [y] ++ snd r) ((if str_eqb x y then [] else [(x, y)]) ++ S).
Proof.
  unfold differ_exactly, diffpairs. intros [H1 H2]. cbn [fst snd app length combine filter]. split; [f_equal; exact H1|].
  destruct (str_eqb x y); cbn [negb app]; [|f_equal]; exact H2.
Qed.

Lemma differ_exactly_same m r S : differ_exactly r S -> differ_exactly ([m] ++ fst r, [m] ++ snd r) S.
Proof. intro H. apply (differ_exactly_cons m m) in H. rewrite str_eqb_refl in H. exact H. Qed.

Lemma kept_lines_kept m x l i : nth_mask m i = false -> kept_lines m (x :: l) i = (i, x) :: kept_lines m l (S i).
Proof. cbn [kept_lines]. intros ->. reflexivity. Qed.

Theorem reconstruct_differs_exactly arem erem aign eign : forall fuel a e ia ie,
  (length a + length e < fuel)%nat ->
  length (kept_lines arem a ia) = length (kept_lines erem e ie) ->
  differ_exactly (reconstruct fuel a e ia ie arem erem aign eign)
                 (map (fun q => (snd (fst q), snd (snd q)))
                      (filter (shown aign eign) (combine (kept_lines arem a ia) (kept_lines erem e ie)))).
Proof.
  induction fuel as [|f IH]; intros a e ia ie Hf Hk; [lia|].
  destruct a as [|x a'], e as [|y e']; cbn [reconstruct kept_lines]; cbn [length kept_lines] in Hf, Hk.
  - split; reflexivity.
  - (* only reference lines left: they must all be removed ones *)
    destruct (nth_mask erem ie); [|discriminate]. apply differ_exactly_same, IH; [cbn [length]; lia|exact Hk].
  - destruct (nth_mask arem ia); [|discriminate]. apply differ_exactly_same, IH; [cbn [length]; lia|exact Hk].
  - destruct (nth_mask arem ia) eqn:Era, (nth_mask erem ie) eqn:Ere; cbn [andb].
    + apply differ_exactly_same, IH; [lia|exact Hk].
    + rewrite <- (kept_lines_kept erem y e' ie Ere) in *. apply differ_exactly_same, IH; [cbn [length]; lia|exact Hk].
    + rewrite <- (kept_lines_kept arem x a' ia Era) in *. apply differ_exactly_same, IH; [cbn [length]; lia|exact Hk].
    + injection Hk as Hk. specialize (IH a' e' (S ia) (S ie) ltac:(lia) Hk).
      pose proof (differ_exactly_cons x y _ _ IH) as G. cbn [combine filter]. unfold shown at 1. cbn [fst snd].
      destruct (str_eqb x y); cbn [negb andb]; [exact G|].
      destruct (mem_nat ia aign || mem_nat ie eign); cbn [negb]; [apply differ_exactly_same, IH|exact G].
Qed.

Lemma kept_idx_ge mask : forall i x, In x (kept_idx mask i) -> (i <= x)%nat.
Proof.
  induction mask as [|b m IH]; intros i x H; cbn [kept_idx] in H; [destruct H|].
  destruct b; [specialize (IH _ _ H); lia|]. destruct H as [<-|H]; [lia|]. specialize (IH _ _ H). lia.
Qed.

Lemma kept_idx_NoDup mask : forall i, NoDup (kept_idx mask i).
Proof.
  induction mask as [|b m IH]; intro i; cbn [kept_idx]; [constructor|]. destruct b; [apply IH|].
  constructor; [|apply IH]. intro H. apply kept_idx_ge in H. lia.
Qed.

Lemma kept_idx_length {T} mask : forall (l : list T) i, length mask = length l -> length (kept_idx mask i) = length (keep mask l).
Proof.
  induction mask as [|b m IH]; intros [|x l] i H; cbn [length] in H; try discriminate; cbn [kept_idx keep]; [reflexivity|].
  destruct b; cbn [length]; rewrite (IH l); try reflexivity; lia.
Qed.

Lemma kept_idx_all_false {T} (l : list T) : forall i, kept_idx (map (fun _ => false) l) i = seq i (length l).
Proof. induction l as [|x l IH]; intro i; cbn [map kept_idx length seq]; [reflexivity|]. rewrite IH. reflexivity. Qed.

Lemma nth_mask_app m0 mask k : nth_mask (m0 ++ mask) (length m0 + k) = nth_mask mask k.
Proof. unfold nth_mask. rewrite app_nth2 by lia. f_equal. lia. Qed.

(* m0 is the part of the mask already passed: kept_lines indexes the whole mask, so the induction needs it general *)
Lemma kept_lines_keep mask : forall m0 (l : list str), length mask = length l ->
  kept_lines (m0 ++ mask) l (length m0) = combine (kept_idx mask (length m0)) (keep mask l).
Proof.
  induction mask as [|b m IH]; intros m0 [|x l] H; cbn [length] in H; try discriminate; cbn [kept_lines kept_idx keep]; [reflexivity|].
  pose proof (nth_mask_app m0 (b :: m) 0) as Hn. rewrite Nat.add_0_r in Hn. rewrite Hn. unfold nth_mask at 1. cbn [nth].
  specialize (IH (m0 ++ [b]) l ltac:(lia)). rewrite <- app_assoc, app_length in IH. cbn [app length] in IH.
  replace (length m0 + 1)%nat with (S (length m0)) in IH by lia.
  destruct b; [exact IH|]. cbn [combine]. f_equal. exact IH.
Qed.

Lemma keep_map {A B} (f : A -> B) mask : forall l, keep mask (map f l) = map f (keep mask l).
Proof. induction mask as [|b m IH]; intros [|x l]; cbn [keep map]; try reflexivity. destruct b; cbn [map]; rewrite IH; reflexivity. Qed.

Lemma kept_lines_prep o A :
  let oa := drop_last_empty A in
  kept_lines (mask o oa) (map (norm o) oa) 0 = combine (kept_idx (mask o oa) 0) (map (norm o) (prep o A)).
Proof.
  rewrite <- keep_mask_prep, <- keep_map.
  apply (kept_lines_keep (mask o (drop_last_empty A)) []). rewrite map_length. apply mask_length.
Qed.

Lemma kept_idx_prep_length o A : length (kept_idx (mask o (drop_last_empty A)) 0) = length (prep o A).
Proof. rewrite <- keep_mask_prep. apply kept_idx_length, mask_length. Qed.

Lemma index_map_kept o l :
  let K := kept_idx (mask o l) 0 in map (index_map (has_removals o) K) (seq 0 (length K)) = K.
Proof.
  unfold index_map, mask. destruct (has_removals o).
  - etransitivity; [|apply (map_nth_seq _ O)]. apply map_ext_in. intros k Hk. apply in_seq in Hk.
    destruct (Nat.ltb_spec k (length (kept_idx (removed_mask (o_rem o) l) 0))); [reflexivity|lia].
  - rewrite kept_idx_all_false, seq_length. apply map_id.
Qed.

Lemma triples_idx {X} (g : nat -> X) (a : list str) : forall (e : list str) k, length a = length e ->
  map (fun t => g (fst (fst t))) (combine (combine (seq k (length a)) a) e) = map g (seq k (length a)).
Proof.
  induction a as [|x a IH]; intros [|y e] k H; simpl in *; try reflexivity; try discriminate.
  f_equal. apply IH. lia.
Qed.

Lemma combine_numbered (f f' : nat -> nat) (g : str -> str) s : forall a e,
  combine (combine (map f s) (map g a)) (combine (map f' s) (map g e)) =
  map (fun t => ((f (fst (fst t)), g (snd (fst t))), (f' (fst (fst t)), g (snd t)))) (combine (combine s a) e).
Proof.
  induction s as [|k s IH]; [reflexivity|]. intros [|x a] [|y e]; [reflexivity..|].
  cbn [map combine]. f_equal. apply IH.
Qed.

Lemma mem_nat_marks f (P : nat * str * str -> bool) T t :
  NoDup (map (fun t => f (fst (fst t))) T) -> In t T ->
  mem_nat (f (fst (fst t))) (marks f (filter P T) []) = P t.
Proof.
  intros Hnd Ht. apply eq_true_iff_eq. unfold mem_nat. rewrite existsb_eqb_In, marks_In. split.
  - intros [[]|[t' [Ht' E]]]. apply filter_In in Ht' as [Ht' Hp]. rewrite <- (NoDup_map_inj _ _ _ _ Hnd Ht' Ht E). exact Hp.
  - intro Hp. right. exists t. split; [apply filter_In; split; assumption|reflexivity].
Qed.

(* numbered kept lines against the marks of wrong_content: a pair of lines is shown exactly when it is unexcused,
   provided each side's numbering of the positions is injective *)
Lemma shown_unexcused o orc (a e : list str) (amap emap : nat -> nat) :
  length a = length e ->
  NoDup (map amap (seq 0 (length a))) -> NoDup (map emap (seq 0 (length a))) ->
  let I := excused_triples o orc a e in
  map (fun q => (snd (fst q), snd (snd q)))
      (filter (shown (marks amap I []) (marks emap I []))
              (combine (combine (map amap (seq 0 (length a))) (map (norm o) a))
                       (combine (map emap (seq 0 (length a))) (map (norm o) e)))) =
  map (fun p => (norm o (fst p), norm o (snd p))) (filter (unexcused o orc) (combine a e)).
Proof.
  intros Hlen Na Ne I. subst I. unfold excused_triples. rewrite filter_filter, combine_numbered.
  rewrite <- (map_pair_combine a e 0%nat). fold (triples a e).
  rewrite !filter_map_comm, !map_map.
  rewrite (filter_ext_in _ (fun t => unexcused o orc (pair_of t))); [reflexivity|].
  intros t Ht. unfold shown, unexcused. cbn [fst snd].
  change (negb (str_eqb (norm o (snd (fst t))) (norm o (snd t)))) with (differs o (pair_of t)).
  destruct (differs o (pair_of t)) eqn:Ed; [|reflexivity]. cbn [andb].
  rewrite !mem_nat_marks; try exact Ht.
  - rewrite Ed, orb_diag. reflexivity.
  - unfold triples. rewrite (triples_idx emap a e 0%nat Hlen). exact Ne.
  - unfold triples. rewrite (triples_idx amap a e 0%nat Hlen). exact Na.
Qed.

(* when a comparison of equally many kept lines produces a reconstruction (the post-processed pair), the two texts have
   the same number of lines and differ exactly - and in order - at the unexcused differences *)
Theorem recon_shows_unexcused o orc A E r :
  no_divergence o orc A E ->
  length (prep o A) = length (prep o E) ->
  r_recon (check_strings o orc A E) = Some r ->
  length (fst r) = length (snd r) /\
  diffpairs r = map (fun p => (norm o (fst p), norm o (snd p))) (U o orc A E).
Proof.
  intros Hnd Hlen Hr. destruct (check_strings_equal_lengths o orc A E Hnd Hlen) as [need Hcs].
  rewrite Hcs in Hr. cbn [r_recon] in Hr. destruct need; [|discriminate].
  (* Some _ = Some r: injection is slow on this term *)
  apply (f_equal (fun x => match x with Some y => y | None => r end)) in Hr. subst r.
  pose proof (kept_lines_prep o A) as Hka. pose proof (kept_lines_prep o E) as Hke.
  pose proof (kept_idx_prep_length o A) as HK. pose proof (kept_idx_prep_length o E) as HK'.
  pose proof (index_map_kept o (drop_last_empty A)) as Ha. pose proof (index_map_kept o (drop_last_empty E)) as He.
  cbv zeta in Ha, He. rewrite HK in Ha. rewrite HK', <- Hlen in He.
  match goal with |- context [reconstruct ?f ?na ?ne 0 0 ?ma ?me ?ai ?ei] =>
    destruct (reconstruct_differs_exactly ma me ai ei f na ne 0 0) as [H1 H2] end.
  { rewrite !map_length. lia. }
  { rewrite Hka, Hke, !combine_length, !map_length, HK, HK'. lia. }
  split; [exact H1|]. rewrite H2, Hka, Hke.
  pose proof (shown_unexcused o orc (prep o A) (prep o E)
                (index_map (has_removals o) (kept_idx (mask o (drop_last_empty A)) 0))
                (index_map (has_removals o) (kept_idx (mask o (drop_last_empty E)) 0)) Hlen) as S.
  rewrite Ha, He in S. apply S; apply kept_idx_NoDup.
Qed.

(* Different numbers of kept lines: the statement fails.
   With ignore_substrings ["A"], actual = A old / x / A older / extra, reference = A new / y / A newer: wrong_number
   stops advancing at the unexcused pair (x, y), so the excusable pair (A older, A newer) is never marked and the
   post-processed pair differs on it too.  This is the known finding c15-postprocessed-pair-different-line-counts,
   as a theorem about the model (the correspondence check shows the code does the same). *)
Definition c15_o : opts :=
  {| o_lstrip := false; o_rstrip := false; o_isub := [[65]]; o_npat := 0; o_rem := []; o_maxperm := 0;
     o_preproc := false; o_apath := false |}.
Definition c15_A : list str := [[65;32;111;108;100]; [120]; [65;32;111;108;100;101;114]; [101;120;116;114;97]].
Definition c15_E : list str := [[65;32;110;101;119]; [121]; [65;32;110;101;119;101;114]].

Lemma different_line_counts_refuted_proof :
  exists o orc A E r,
    existsb (diverging o orc) (combine (prep o A) (prep o E)) = false /\
    length (prep o A) <> length (prep o E) /\
    r_verdict (check_strings o orc A E) = Fail /\
    r_recon (check_strings o orc A E) = Some r /\
    exists p, In p (diffpairs r) /\ differs o p = true /\ excused o orc p = true.
Proof.
  eexists c15_o, [], c15_A, c15_E, _.
  split; [vm_compute; reflexivity|]. split; [vm_compute; discriminate|].
  split; [vm_compute; reflexivity|]. split; [vm_compute; reflexivity|].
  exists ([65;32;111;108;100;101;114], [65;32;110;101;119;101;114]).
  split; [vm_compute; right; left; reflexivity|]. split; vm_compute; reflexivity.
Qed.

(* the prefixes of that length agree, and it is the longest such: a side ends there or the next characters differ *)
Lemma common_prefix_len_spec (a b : str) d :
  firstn (common_prefix_len a b) a = firstn (common_prefix_len a b) b /\
  (common_prefix_len a b <= Nat.min (length a) (length b))%nat /\
  ((common_prefix_len a b < length a)%nat -> (common_prefix_len a b < length b)%nat ->
   nth (common_prefix_len a b) a d <> nth (common_prefix_len a b) b d).
Proof.
  revert b; induction a as [|x a IH]; intros [|y b]; cbn [common_prefix_len]; try (cbn; split; [reflexivity|lia]).
  destruct (Z.eqb_spec x y) as [<-|Hxy].
  - destruct (IH b) as (H1 & H2 & H3). cbn. split; [f_equal; exact H1|]. split; [lia|]. intros Ha Hb. apply H3; lia.
  - cbn. split; [reflexivity|]. split; [lia|]. intros _ _. exact Hxy.
Qed.

Lemma check_binary_refl x : check_binary x x = None.
Proof. unfold check_binary. rewrite str_eqb_refl. reflexivity. Qed.

(* when the shorter file is a prefix of the longer the offset is its length, otherwise that of the longest common
   prefix (taken with the sides exchanged) *)
Theorem binary_offset_exact_proof actual expected :
  match check_binary actual expected with
  | None => actual = expected
  | Some b =>
    actual <> expected /\
    bi_actual_len b = length actual /\ bi_expected_len b = length expected /\
    firstn (bi_offset b) actual = firstn (bi_offset b) expected /\
    (bi_offset b <= Nat.min (length actual) (length expected))%nat /\
    ((bi_offset b < length actual)%nat -> (bi_offset b < length expected)%nat ->
     nth (bi_offset b) actual 0%Z <> nth (bi_offset b) expected 0%Z)
  end.
Proof.
  unfold check_binary. destruct (str_eqb expected actual) eqn:Eq; [symmetry; apply str_eqb_eq, Eq|].
  cbn [bi_offset bi_actual_len bi_expected_len].
  split; [intros ->; rewrite str_eqb_refl in Eq; discriminate|]. split; [reflexivity|]. split; [reflexivity|].
  destruct (str_eqb (firstn _ expected) (firstn _ actual)) eqn:E.
  - apply str_eqb_eq in E. split; [symmetry; exact E|]. split; lia.
  - destruct (common_prefix_len_spec expected actual 0%Z) as (H1 & H2 & H3).
    split; [symmetry; exact H1|]. split; [lia|]. intros Ha He Hn. exact (H3 He Ha (eq_sym Hn)).
Qed.

(* when each artefact is written: only after a failure, only with create_temporaries; a raw side only when that side
   was not given as a file, the post-processed pair only when a reconstruction exists *)
Definition is_written (c : fail_ctx) (a : artefact) : bool :=
  fc_failed c && fc_create c &&
  match a with
  | ActualRaw => negb (fc_apath c)
  | ExpectedRaw => negb (fc_epath c)
  | PostActual | PostExpected => fc_recon c
  end.

Lemma written_filter c : written c = filter (is_written c) [ExpectedRaw; ActualRaw; PostActual; PostExpected].
Proof.
  unfold written, is_written. destruct (fc_failed c); [|reflexivity].
  destruct (fc_create c); [|destruct (fc_recon c); reflexivity].
  destruct (fc_apath c), (fc_epath c), (fc_recon c); reflexivity.
Qed.

Lemma In_written c a : In a (written c) <-> is_written c a = true.
Proof.
  rewrite written_filter. split; intro H.
  - apply filter_In in H. apply H.
  - apply filter_In. split; [destruct a; cbn [In]; auto|exact H].
Qed.

(* every file named in the message is either a given path or one that was written *)
Theorem named_files_exist_proof c :
  (names_raw_pair c = true -> (fc_apath c = true \/ In ActualRaw (written c)) /\
                              (fc_epath c = true \/ In ExpectedRaw (written c))) /\
  (names_post_pair c = true -> In PostActual (written c) /\ In PostExpected (written c)).
Proof.
  unfold names_raw_pair, names_post_pair. split; intro H.
  - apply andb_true_iff in H as [Hf H]. apply andb_true_iff in H as [Ha He]. split.
    + destruct (fc_apath c) eqn:E; [left; reflexivity|right].
      apply In_written. unfold is_written. rewrite Hf, E. cbn [orb] in Ha. rewrite Ha. reflexivity.
    + destruct (fc_epath c) eqn:E; [left; reflexivity|right].
      apply In_written. unfold is_written. rewrite Hf, E. cbn [orb] in He. rewrite He. reflexivity.
  - apply andb_true_iff in H as [H Hc]. apply andb_true_iff in H as [Hf Hr].
    split; apply In_written; unfold is_written; rewrite Hf, Hc, Hr; reflexivity.
Qed.
