(* Selection by tag (C19): --tagged runs exactly the tagged tests, each once; --istagged runs none and lists the classes
   that hold a tagged test. *)
From Coq Require Import List.
From Tdda Require Import Base.ListFacts Base.Sexp RefTest.Argv RefTest.ArgvProofs RefTest.Tagged.
Import ListNotations.
Open Scope Z_scope.

(* a test carries the tag itself or through its class *)
Definition eff_tagged (c : tclass) (m : str * bool) : bool := tc_tagged c || snd m.

Lemma tagged_names_spec c n :
  In n (tagged_names c) <-> exists m, In m (tc_methods c) /\ fst m = n /\ eff_tagged c m = true.
Proof.
  unfold tagged_names, eff_tagged. destruct (tc_tagged c); simpl.
  - rewrite in_map_iff. split; intros [m Hm]; exists m; tauto.
  - rewrite in_map_iff. split; intros [m Hm]; exists m; rewrite filter_In in *; tauto.
Qed.

Definition selected_cases (tagged check : bool) (cs : list tclass) : list (str * str) :=
  match select tagged check cs with Ran ex _ => ex | _ => [] end.
Definition listed_classes (tagged check : bool) (cs : list tclass) : list str :=
  match select tagged check cs with Ran _ li => li | _ => [] end.

Lemma select_is_ran t k cs : exists ex li, select t k cs = Ran ex li.
Proof. unfold select. destruct k; [|destruct t]; eauto. Qed.

Lemma tagged_selection_exact_proof cs cn n :
  In (cn, n) (selected_cases true false cs) <->
  exists c m, In c cs /\ tc_name c = cn /\ In m (tc_methods c) /\ fst m = n /\ eff_tagged c m = true.
Proof.
  unfold selected_cases, select. rewrite in_flat_map. split.
  - intros [c [Hc Hin]]. apply in_map_iff in Hin as [x [Hx Hin]]. inversion Hx; subst.
    apply tagged_names_spec in Hin as [m Hm]. exists c, m. tauto.
  - intros [c [m [Hc [Hn Hm]]]]. exists c. split; [exact Hc|]. apply in_map_iff. exists n.
    split; [congruence|]. apply tagged_names_spec. exists m. tauto.
Qed.

Lemma tagged_names_NoDup c : NoDup (map fst (tc_methods c)) -> NoDup (tagged_names c).
Proof.
  unfold tagged_names. destruct (tc_tagged c); [auto|]. apply NoDup_map_filter.
Qed.

Lemma qualified_names_NoDup (names : tclass -> list str) cs :
  NoDup (map tc_name cs) ->
  (forall c, In c cs -> NoDup (names c)) ->
  NoDup (flat_map (fun c => map (fun m => (tc_name c, m)) (names c)) cs).
Proof.
  induction cs as [|c cs IH]; simpl; intros Hnd Hm; [constructor|].
  inversion Hnd as [|? ? Hnotin Hnd']; subst.
  apply NoDup_app_intro.
  - apply NoDup_map_in; [intros x y _ _ E; injection E; auto|]. apply Hm. left; reflexivity.
  - apply IH; auto.
  - intros [cn n] Ha Hb. apply in_map_iff in Ha as [x [Hx _]]. inversion Hx; subst.
    apply in_flat_map in Hb as [c' [Hc' Hin]]. apply in_map_iff in Hin as [y [Hy _]].
    inversion Hy as [[Hname Hyn]]. apply Hnotin. apply in_map_iff. exists c'. split; assumption.
Qed.

Lemma list_runs_none_proof t cs :
  selected_cases t true cs = [] /\
  forall cn, In cn (listed_classes t true cs) <->
             exists c, In c cs /\ tc_name c = cn /\ exists m, In m (tc_methods c) /\ eff_tagged c m = true.
Proof.
  unfold selected_cases, listed_classes, select. split; [reflexivity|]. intro cn.
  rewrite in_map_iff. split.
  - intros [c [Hn Hin]]. apply filter_In in Hin as [Hc Hne]. exists c. split; [exact Hc|]. split; [exact Hn|].
    destruct (tagged_names c) as [|n ns] eqn:E; [discriminate|].
    assert (Hn' : In n (tagged_names c)) by (rewrite E; left; reflexivity).
    apply tagged_names_spec in Hn' as [m Hm]. exists m. tauto.
  - intros [c [Hc [Hn [m [Hm He]]]]]. exists c. split; [exact Hn|]. apply filter_In. split; [exact Hc|].
    assert (Hin : In (fst m) (tagged_names c)) by (apply tagged_names_spec; exists m; tauto).
    destruct (tagged_names c); [destruct Hin|reflexivity].
Qed.

Definition run_args (prog : str) (rest : list str) : list str := tl (ar_argv (spec_result prog rest)).
