(* C10: the regeneration table, the file store and one step of the assertion state machine (RefTest/Regen.v):
   an assertion either regenerates its own reference or leaves every file alone; which kinds argv parsing sets. *)
From Coq Require Import List Bool.
From Tdda Require Import Base.Sexp Base.Str RefTest.Argv RefTest.CheckStrings RefTest.Regen.
Import ListNotations.
Open Scope Z_scope.

Lemma kind_eqb_eq a b : kind_eqb a b = true <-> a = b.
Proof.
  destruct a as [x|], b as [y|]; simpl; try (split; [discriminate|discriminate]); try tauto.
  rewrite str_eqb_eq. split; congruence.
Qed.
Lemma kind_eqb_refl a : kind_eqb a a = true.
Proof. apply kind_eqb_eq. reflexivity. Qed.

Lemma tlookup_tset_same k b t : tlookup k (tset k b t) = Some b.
Proof.
  induction t as [|[k' b'] t IH]; simpl; [rewrite kind_eqb_refl; reflexivity|].
  destruct (kind_eqb k k') eqn:E; simpl; [rewrite kind_eqb_refl; reflexivity|]. rewrite E. exact IH.
Qed.

Lemma tlookup_tset_other k k' b t : kind_eqb k' k = false -> tlookup k' (tset k b t) = tlookup k' t.
Proof.
  intro H. induction t as [|[k2 b2] t IH]; simpl; [rewrite H; reflexivity|].
  destruct (kind_eqb k k2) eqn:E; simpl.
  - apply kind_eqb_eq in E. subst k2. rewrite H. reflexivity.
  - destruct (kind_eqb k' k2); [reflexivity|exact IH].
Qed.

Lemma fread_fwrite_same p c f : fread p (fwrite p c f) = Some c.
Proof.
  induction f as [|[q c'] f IH]; simpl; [rewrite str_eqb_refl; reflexivity|].
  destruct (str_eqb p q) eqn:E; simpl; [rewrite str_eqb_refl; reflexivity|]. rewrite E. exact IH.
Qed.

Lemma fread_fwrite_other p q c f : str_eqb q p = false -> fread q (fwrite p c f) = fread q f.
Proof.
  intro H. induction f as [|[r c'] f IH]; simpl; [rewrite H; reflexivity|].
  destruct (str_eqb p r) eqn:E; simpl.
  - apply str_eqb_eq in E. subst r. rewrite H. reflexivity.
  - destruct (str_eqb q r); [reflexivity|exact IH].
Qed.

Definition op_kind (x : op) : option kind :=
  match x with
  | AssertString k _ _ _ _ | AssertTextFile k _ _ _ _ | AssertBinaryFile k _ _ => Some k
  | _ => None
  end.
Definition op_ref (x : op) : option str :=
  match x with
  | AssertString _ _ _ _ r | AssertTextFile _ _ _ _ r | AssertBinaryFile _ _ r => Some r
  | _ => None
  end.

(* what a regenerating assertion writes as the new reference (None: the actual file cannot be read) *)
Definition regen_content (s : state) (x : op) : option str :=
  match x with
  | AssertString _ _ _ a _ => Some a
  | AssertTextFile _ _ _ ap _ => option_map univ_nl (fread ap (st_fs s))
  | AssertBinaryFile _ ap _ => fread ap (st_fs s)
  | _ => None
  end.

(* every assertion either regenerates its reference or leaves the state alone; no other step touches a file *)
Lemma step_cases s x :
  match op_kind x, op_ref x with
  | Some k, Some r =>
    step s x = if should_regenerate (st_table s) k
               then match regen_content s x with
                    | Some c => (with_fs s (fwrite r c (st_fs s)), Regenerated)
                    | None => (s, Raised)
                    end
               else (s, snd (step s x))
  | _, _ => st_fs (fst (step s x)) = st_fs s /\ snd (step s x) <> Regenerated
  end.
Proof.
  destruct x as [k b|argv|k o orc a r|k o orc ap r|k ap r]; cbn [op_kind op_ref step regen_content].
  - split; [reflexivity|discriminate].
  - destruct (set_flags argv); split; (reflexivity || discriminate).
  - destruct (should_regenerate (st_table s) k); [reflexivity|]. destruct (fread r (st_fs s)); reflexivity.
  - destruct (should_regenerate (st_table s) k); [destruct (fread ap (st_fs s)); reflexivity|].
    destruct (fread r (st_fs s)), (fread ap (st_fs s)); reflexivity.
  - destruct (should_regenerate (st_table s) k); [destruct (fread ap (st_fs s)); reflexivity|].
    destruct (fread r (st_fs s)), (fread ap (st_fs s)); reflexivity.
Qed.

Lemma regen_writes s x k r c :
  op_kind x = Some k -> op_ref x = Some r -> should_regenerate (st_table s) k = true ->
  regen_content s x = Some c -> fread r (st_fs (fst (step s x))) = Some c.
Proof.
  intros Hk Hr H Hc. pose proof (step_cases s x) as E. rewrite Hk, Hr, H, Hc in E. rewrite E.
  apply fread_fwrite_same.
Qed.

Theorem only_regeneration_writes_proof s x :
  (snd (step s x) <> Regenerated -> st_fs (fst (step s x)) = st_fs s) /\
  (forall p, match op_ref x with Some r => str_eqb p r = false | None => True end ->
             fread p (st_fs (fst (step s x))) = fread p (st_fs s)).
Proof.
  pose proof (step_cases s x) as H. destruct (op_kind x) as [k|], (op_ref x) as [r|].
  2-4: destruct H as [H _]; rewrite H; split; reflexivity.
  rewrite H. destruct (should_regenerate (st_table s) k); [|split; intros; reflexivity].
  destruct (regen_content s x); cbn [fst snd]; [|split; intros; reflexivity].
  split; [congruence|]. intros p Hp. apply fread_fwrite_other. exact Hp.
Qed.

Theorem assertions_keep_table_proof s x : op_kind x <> None -> st_table (fst (step s x)) = st_table s.
Proof.
  pose proof (step_cases s x) as H. intro Hk.
  destruct x; cbn [op_kind op_ref] in *; try congruence; rewrite H;
    (destruct (should_regenerate _ _); [destruct (regen_content _ _)|]; reflexivity).
Qed.

(* argv parsing only ever sets entries to True; in such a table a kind regenerates iff it or the all-kinds key is set *)
Definition all_true (t : table) : Prop := forall k b, tlookup k t = Some b -> b = true.
Definition is_set (k : kind) (t : table) : bool := match tlookup k t with Some _ => true | None => false end.

Lemma should_regenerate_all_true t k : all_true t -> should_regenerate t k = is_set k t || is_set None t.
Proof.
  intro Ht. unfold should_regenerate, is_set. destruct (tlookup k t) as [b|] eqn:E.
  - rewrite E. exact (Ht k b E).
  - destruct (tlookup None t) as [b|] eqn:En; [exact (Ht None b En)|reflexivity].
Qed.

Lemma is_set_tset k k' b t : is_set k' (tset k b t) = kind_eqb k' k || is_set k' t.
Proof.
  unfold is_set. destruct (kind_eqb k' k) eqn:E.
  - apply kind_eqb_eq in E. subst k'. rewrite tlookup_tset_same. reflexivity.
  - rewrite (tlookup_tset_other k k' b t E). reflexivity.
Qed.

Lemma all_true_tset k t : all_true t -> all_true (tset k true t).
Proof.
  intros Ht k1 b1 H1. destruct (kind_eqb k1 k) eqn:E.
  - apply kind_eqb_eq in E. subst k1. rewrite tlookup_tset_same in H1. congruence.
  - rewrite (tlookup_tset_other k k1 true t E) in H1. exact (Ht k1 b1 H1).
Qed.

Lemma kinds_fold_spec kinds : forall t, all_true t ->
  let t' := fold_left (fun t k => tset k true t) kinds t in
  all_true t' /\ forall k, is_set k t' = existsb (kind_eqb k) kinds || is_set k t.
Proof.
  induction kinds as [|k0 kinds IH]; intros t Ht; cbn [fold_left existsb]; [split; [exact Ht|reflexivity]|].
  destruct (IH (tset k0 true t) (all_true_tset k0 t Ht)) as [H1 H2]. split; [exact H1|].
  intro k. rewrite H2, is_set_tset, orb_assoc, (orb_comm (existsb _ kinds)). reflexivity.
Qed.
