(* The argv scanner (C19, C10).  Removing flags is stated through not_in / any_in / count_in; pop_flag says what the
   scanner's index / del idiom does; strip_spec_proof gives the whole result on the command lines of in_domain. *)
From Coq Require Import ZArith List Bool Lia.
From Tdda Require Import Base.ListFacts Base.Sexp Base.Str Generated.Consts RefTest.Argv.
Import ListNotations.
Open Scope Z_scope.

Definition neq_flag (f : str) : str -> bool := fun a => negb (str_eqb f a).
Definition occurrences (f : str) (l : list str) : nat := length (filter (str_eqb f) l).
Definition not_in (flags : list str) : str -> bool := fun a => negb (mem_str a flags).

Definition any_in (flags : list str) (argv : list str) : bool :=
  existsb (fun a => mem_str a flags) argv.

Definition count_in (flags : list str) (l : list str) : nat :=
  length (filter (fun a => mem_str a flags) l).

Lemma mem_str_cons a f flags : mem_str a (f :: flags) = str_eqb f a || mem_str a flags.
Proof. cbn [mem_str]. rewrite str_eqb_sym. reflexivity. Qed.

Lemma mem_str_single a f : mem_str a [f] = str_eqb f a.
Proof. rewrite mem_str_cons. apply orb_false_r. Qed.

Lemma filter_neq_flag_not_in f l : filter (neq_flag f) l = filter (not_in [f]) l.
Proof. apply filter_ext. intro x. unfold neq_flag, not_in. rewrite mem_str_single. reflexivity. Qed.

Lemma mem_str_app x a b : mem_str x (a ++ b) = mem_str x a || mem_str x b.
Proof. induction a as [|y a IH]; simpl; [reflexivity|]. rewrite IH, orb_assoc. reflexivity. Qed.

Lemma not_in_app a b x : not_in (a ++ b) x = not_in a x && not_in b x.
Proof. unfold not_in. rewrite mem_str_app, negb_orb. reflexivity. Qed.

Lemma not_in_cons_inv f flags p : not_in (f :: flags) p = true -> str_eqb f p = false /\ not_in flags p = true.
Proof.
  unfold not_in. intro H. apply negb_true_iff in H. rewrite mem_str_cons in H. apply orb_false_iff in H as [H1 H2].
  rewrite H2. split; [exact H1|reflexivity].
Qed.

Lemma not_in_str_eqb f flags p : In f flags -> not_in flags p = true -> str_eqb f p = false.
Proof.
  unfold not_in. intros Hin H. apply negb_true_iff in H.
  apply str_eqb_neq. intro E. subst p. apply mem_str_In in Hin. congruence.
Qed.

Lemma filter_not_in_nil l : filter (not_in []) l = l.
Proof. apply filter_all_true. reflexivity. Qed.

Lemma filter_not_in_app a b l :
  filter (not_in b) (filter (not_in a) l) = filter (not_in (a ++ b)) l.
Proof. rewrite filter_filter. apply filter_ext. intro x. rewrite not_in_app. reflexivity. Qed.

Lemma filter_not_in_cons f flags l :
  filter (not_in flags) (filter (neq_flag f) l) = filter (not_in (f :: flags)) l.
Proof. rewrite filter_neq_flag_not_in. apply (filter_not_in_app [f]). Qed.

Lemma any_in_nil l : any_in [] l = false.
Proof. apply existsb_false_iff. reflexivity. Qed.

Lemma any_in_cons f flags argv :
  any_in (f :: flags) argv = mem_str f argv || any_in flags (filter (neq_flag f) argv).
Proof.
  unfold any_in. induction argv as [|a l IH]; [reflexivity|].
  cbn [existsb filter]. rewrite IH, mem_str_cons. cbn [mem_str]. unfold neq_flag at 2.
  destruct (str_eqb f a); cbn [negb orb existsb]; [reflexivity|].
  destruct (mem_str a flags), (mem_str f l); reflexivity.
Qed.

Lemma count_in_cons f flags l :
  count_in (f :: flags) l = (occurrences f l + count_in flags (filter (neq_flag f) l))%nat.
Proof.
  unfold count_in, occurrences. induction l as [|a l IH]; [reflexivity|].
  cbn [filter]. rewrite mem_str_cons. unfold neq_flag at 1.
  destruct (str_eqb f a); cbn [orb negb length filter]; [rewrite IH; reflexivity|].
  destruct (mem_str a flags); cbn [length]; rewrite IH; lia.
Qed.

Lemma occurrences_filter_le f g l : (occurrences f (filter g l) <= occurrences f l)%nat.
Proof. apply filter_filter_length_le. Qed.

Lemma count_in_filter_le flags g l : (count_in flags (filter g l) <= count_in flags l)%nat.
Proof. apply filter_filter_length_le. Qed.

Lemma occurrences_zero f l : occurrences f l = O -> mem_str f l = false.
Proof. rewrite mem_str_existsb. apply count_zero_iff. Qed.

Lemma filter_not_in_absent flags l : count_in flags l = O -> filter (not_in flags) l = l.
Proof. intro H. apply count_zero_iff in H. exact (filter_negb_absent _ _ H). Qed.

Lemma filter_neq_flag_absent f l :
  mem_str f l = false -> filter (neq_flag f) l = l.
Proof. rewrite mem_str_existsb. exact (filter_negb_absent _ _). Qed.

Lemma mem_filter_same f l : mem_str f (filter (neq_flag f) l) = false.
Proof.
  induction l as [|y l IH]; simpl; [reflexivity|].
  unfold neq_flag at 1. destruct (str_eqb f y) eqn:E; simpl; [exact IH|].
  rewrite E. exact IH.
Qed.

Lemma mem_filter_not_in f flags l :
  mem_str f flags = false -> mem_str f (filter (not_in flags) l) = mem_str f l.
Proof.
  intro H. rewrite !mem_str_existsb. apply existsb_filter_keep. intros x E.
  apply str_eqb_eq in E. subst x. unfold not_in. rewrite H. reflexivity.
Qed.

Lemma any_in_filter_disjoint A B l :
  forallb (fun a => negb (mem_str a B)) A = true ->
  any_in A (filter (not_in B) l) = any_in A l.
Proof.
  intro H. apply existsb_filter_keep. intros x E.
  apply (proj1 (forallb_forall _ _) H). apply mem_str_In. exact E.
Qed.

Lemma index_none_mem f l : index_str f l = None <-> mem_str f l = false.
Proof.
  induction l as [|y l IH]; simpl; [tauto|].
  destruct (str_eqb f y); simpl; [split; discriminate|].
  destruct (index_str f l); [split; [discriminate|]|tauto].
  intro H. apply IH in H. discriminate.
Qed.

Lemma index_some_mem f l i : index_str f l = Some i -> mem_str f l = true.
Proof.
  intro H. destruct (mem_str f l) eqn:E; [reflexivity|].
  apply index_none_mem in E. congruence.
Qed.

Lemma index_some_filter f l : forall i,
  index_str f l = Some i -> (occurrences f l <= 1)%nat ->
  remove_at i l = filter (neq_flag f) l.
Proof.
  unfold occurrences. induction l as [|y l IH]; simpl; intros i Hi Hocc; [discriminate|].
  unfold neq_flag at 1. destruct (str_eqb f y) eqn:E; simpl in *.
  - inversion Hi; subst. unfold remove_at; simpl.
    symmetry. apply filter_neq_flag_absent. apply occurrences_zero. unfold occurrences. lia.
  - destruct (index_str f l) as [n|] eqn:En; [|discriminate]. inversion Hi; subst.
    change (remove_at (S n) (y :: l)) with (y :: remove_at n l). f_equal. apply IH; auto.
Qed.

(* the scanner's "if flag in argv: idx = argv.index(flag); if idx: del argv[idx]" pops the flag from behind the
   program name, when it occurs at most once *)
Lemma pop_flag f p l : str_eqb f p = false -> (occurrences f l <= 1)%nat ->
  (index_str f (p :: l) = None /\ mem_str f l = false /\ filter (neq_flag f) l = l) \/
  (exists i, index_str f (p :: l) = Some (S i) /\ mem_str f l = true /\
             remove_at (S i) (p :: l) = p :: filter (neq_flag f) l).
Proof.
  intros Hfp Hocc. cbn [index_str]. rewrite Hfp. destruct (index_str f l) as [i|] eqn:Ei.
  - right. exists i. split; [reflexivity|]. split; [exact (index_some_mem _ _ _ Ei)|].
    change (remove_at (S i) (p :: l)) with (p :: remove_at i l). f_equal. apply index_some_filter; assumption.
  - left. apply index_none_mem in Ei. split; [reflexivity|]. split; [exact Ei|apply filter_neq_flag_absent; exact Ei].
Qed.

Lemma drop_quiet_spec f p l q :
  str_eqb f p = false -> (occurrences f l <= 1)%nat ->
  drop_quiet f (p :: l, q) = (p :: filter (neq_flag f) l, q || mem_str f l).
Proof.
  intros Hfp Hocc. unfold drop_quiet. cbn [fst].
  destruct (pop_flag f p l Hfp Hocc) as [(-> & -> & ->)|(i & -> & -> & ->)].
  - rewrite orb_false_r. reflexivity.
  - rewrite orb_true_r. reflexivity.
Qed.

Lemma drop_quiets_spec flags : forall p l q,
  not_in flags p = true ->
  (forall f, In f flags -> (occurrences f l <= 1)%nat) ->
  fold_left (fun st f => drop_quiet f st) flags (p :: l, q) =
  (p :: filter (not_in flags) l, q || any_in flags l).
Proof.
  induction flags as [|f flags IH]; intros p l q Hp Hocc; cbn [fold_left].
  - rewrite filter_not_in_nil, any_in_nil, orb_false_r. reflexivity.
  - apply not_in_cons_inv in Hp as [Hfp Hp].
    rewrite drop_quiet_spec by (auto using in_eq). rewrite IH.
    + rewrite filter_not_in_cons, any_in_cons, orb_assoc. reflexivity.
    + exact Hp.
    + intros g Hg. eapply Nat.le_trans; [apply occurrences_filter_le|]. apply Hocc. right; exact Hg.
Qed.

(* for writeflag in ('--W', '--write-all'): the loop breaks at the first one found *)
Lemma drop_writeall_spec flags : forall p l,
  not_in flags p = true ->
  (count_in flags l <= 1)%nat ->
  drop_writeall flags (p :: l) = (p :: filter (not_in flags) l, any_in flags l).
Proof.
  induction flags as [|f flags IH]; intros p l Hp Hc; cbn [drop_writeall].
  - rewrite filter_not_in_nil, any_in_nil. reflexivity.
  - apply not_in_cons_inv in Hp as [Hfp Hp]. rewrite count_in_cons in Hc.
    rewrite <- filter_not_in_cons, any_in_cons.
    destruct (pop_flag f p l Hfp ltac:(lia)) as [(-> & -> & Hf)|(i & -> & Hm & ->)].
    + rewrite Hf in *. apply IH; [assumption|lia].
    + rewrite Hm. destruct (occurrences f l) eqn:Eo; [apply occurrences_zero in Eo; congruence|].
      rewrite filter_not_in_absent by lia. reflexivity.
Qed.

Lemma drop_write_absent flags : forall argv,
  any_in flags argv = false -> drop_write flags argv = WOk argv [].
Proof.
  induction flags as [|f flags IH]; intros argv H; [reflexivity|].
  rewrite any_in_cons in H. apply orb_false_iff in H as [H1 H2].
  rewrite (filter_neq_flag_absent f argv H1) in H2.
  cbn [drop_write]. apply index_none_mem in H1. rewrite H1. apply IH. exact H2.
Qed.

Lemma drop_tag_spec f p l t c :
  str_eqb f p = false -> (occurrences f l <= 1)%nat ->
  drop_tag (p :: l, t, c) f =
  (p :: filter (not_in [f]) l,
   t || (negb (mem_str f argv_check_options) && mem_str f l),
   c || (mem_str f argv_check_options && mem_str f l)).
Proof.
  intros Hfp Hocc. unfold drop_tag. rewrite <- filter_neq_flag_not_in.
  destruct (pop_flag f p l Hfp Hocc) as [(-> & -> & ->)|(i & -> & -> & ->)].
  - rewrite !andb_false_r, !orb_false_r. reflexivity.
  - destruct (mem_str f argv_check_options); cbn [andb negb]; rewrite ?orb_true_r, ?orb_false_r; reflexivity.
Qed.

Definition s_tagged : str := [45;45;116;97;103;103;101;100].
Definition s_istagged : str := [45;45;105;115;116;97;103;103;101;100].

Definition scanned (rest : list str) : list str := filter is_nonempty (map scan_arg rest).
Definition long_flags : list str := argv_quiet_flags ++ argv_writeall_flags ++ argv_tag_flags.

(* The command lines the property speaks about: a real program name; each long tdda
   flag at most once (at most one of --W/--write-all); no -w/--w/--write. *)
Definition in_domain (prog : str) (rest : list str) : bool :=
  is_nonempty prog &&
  not_in (long_flags ++ argv_write_flags) prog &&
  forallb (fun f => Nat.leb (occurrences f (scanned rest)) 1) (argv_quiet_flags ++ argv_tag_flags) &&
  Nat.leb (count_in argv_writeall_flags (scanned rest)) 1 &&
  negb (any_in argv_write_flags (scanned rest)).

Definition spec_result (prog : str) (rest : list str) : argv_result :=
  let singles := filter is_single_dash rest in
  {| ar_argv := prog :: filter (not_in long_flags) (scanned rest);
     ar_tagged := existsb (has_char c1) singles || mem_str s_tagged (scanned rest);
     ar_check := existsb (has_char c0) singles || mem_str s_istagged (scanned rest);
     ar_kinds := if existsb (has_char cW) singles || any_in argv_writeall_flags (scanned rest)
                 then [None] else [];
     ar_quiet := any_in argv_quiet_flags (scanned rest) |}.

Theorem strip_spec_proof prog rest :
  in_domain prog rest = true ->
  set_flags (prog :: rest) = Some (spec_result prog rest).
Proof.
  intro H. unfold in_domain in H.
  apply andb_true_iff in H as [H Hw]. apply andb_true_iff in H as [H Hcnt].
  apply andb_true_iff in H as [H Hocc]. apply andb_true_iff in H as [Hne Hprog].
  apply negb_true_iff in Hw. apply Nat.leb_le in Hcnt.
  unfold long_flags in Hprog. rewrite !not_in_app in Hprog.
  apply andb_true_iff in Hprog as [Hprog Hpw]. apply andb_true_iff in Hprog as [Hpq Hprog].
  apply andb_true_iff in Hprog as [Hpwa Hpt].
  assert (Ho : forall f, In f (argv_quiet_flags ++ argv_tag_flags) -> (occurrences f (scanned rest) <= 1)%nat).
  { intros f Hf. apply Nat.leb_le. exact (proj1 (forallb_forall _ _) Hocc f Hf). }
  assert (Hof : forall f g l, (occurrences f l <= 1)%nat -> (occurrences f (filter g l) <= 1)%nat).
  { intros f g l Hl. eapply Nat.le_trans; [apply occurrences_filter_le|exact Hl]. }
  unfold set_flags. cbn [tl filter]. rewrite Hne. fold (scanned rest).
  rewrite drop_quiets_spec; [|exact Hpq|intros f Hf; apply Ho, in_or_app; left; exact Hf].
  rewrite drop_writeall_spec; [|exact Hpwa|eapply Nat.le_trans; [apply count_in_filter_le|exact Hcnt]].
  rewrite drop_write_absent.
  2:{ unfold any_in. cbn [existsb]. apply negb_true_iff in Hpw.
      rewrite Hpw. apply existsb_filter_false, existsb_filter_false, Hw. }
  (* argv_tag_flags = [s_tagged; s_istagged], of which only the second is a check option *)
  change argv_tag_flags with [s_tagged; s_istagged] in *. cbn [fold_left].
  assert (Ht : forall f, In f [s_tagged; s_istagged] ->
                         str_eqb f prog = false /\ (occurrences f (scanned rest) <= 1)%nat).
  { intros f Hf. split; [exact (not_in_str_eqb _ _ _ Hf Hpt)|apply Ho, in_or_app; right; exact Hf]. }
  destruct (Ht s_tagged) as [Ht1 Ht2]; [left; reflexivity|].
  destruct (Ht s_istagged) as [Hi1 Hi2]; [right; left; reflexivity|].
  rewrite !drop_tag_spec by auto.
  change (mem_str s_tagged argv_check_options) with false.
  change (mem_str s_istagged argv_check_options) with true.
  cbn [negb andb orb]. rewrite orb_false_r.
  rewrite !filter_not_in_app, !mem_filter_not_in by reflexivity.
  rewrite (any_in_filter_disjoint argv_writeall_flags argv_quiet_flags) by reflexivity.
  reflexivity.
Qed.
