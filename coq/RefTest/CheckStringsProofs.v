(* check_strings (C04; used by C10, C11, C12, C15).  The vocabulary of the specification (prep, U, Spec, no_divergence);
   the record check_strings returns on texts with equally many kept lines; PASS <-> Spec; the corollaries for equal
   texts, for options without patterns or removals, and for the entry points that read files. *)
From Coq Require Import ZArith List Bool Lia Permutation.
From Tdda Require Import Base.ListFacts Base.Sexp Base.Str Base.SortProofs RefTest.CheckStrings.
Import ListNotations.
Open Scope Z_scope.

(* has_removals, norm and (below) mask name local lets of check_strings, which spells them out *)
Definition has_removals (o : opts) : bool := match o_rem o with [] => false | _ => true end.
Definition is_removed (o : opts) (a : str) : bool := existsb (fun r => contains r a) (o_rem o).
Definition norm (o : opts) : str -> str := normalize (o_lstrip o) (o_rstrip o).

(* the lines that take part in the comparison *)
Definition prep (o : opts) (l : list str) : list str :=
  filter (fun a => negb (is_removed o a)) (drop_last_empty l).

Definition tri_true (t : tri) : bool := match t with TTrue => true | _ => false end.
Definition tri_div (t : tri) : bool := match t with TDiverge => true | _ => false end.

Definition differs (o : opts) (p : str * str) : bool :=
  negb (str_eqb (norm o (fst p)) (norm o (snd p))).
Definition excused (o : opts) (orc : poracle) (p : str * str) : bool :=
  tri_true (can_ignore o orc (fst p) (snd p)).
Definition unexcused (o : opts) (orc : poracle) (p : str * str) : bool :=
  differs o p && negb (excused o orc p).
Definition diverging (o : opts) (orc : poracle) (p : str * str) : bool :=
  differs o p && tri_div (can_ignore o orc (fst p) (snd p)).

Definition U (o : opts) (orc : poracle) (A E : list str) : list (str * str) :=
  filter (unexcused o orc) (combine (prep o A) (prep o E)).

Definition Spec (o : opts) (orc : poracle) (A E : list str) : Prop :=
  length (prep o A) = length (prep o E) /\
  (U o orc A E = [] \/
   ((length (U o orc A E) <= o_maxperm o)%nat /\
    Permutation (map fst (U o orc A E)) (map snd (U o orc A E)))).

Definition no_divergence (o : opts) (orc : poracle) (A E : list str) : Prop :=
  existsb (diverging o orc) (combine (prep o A) (prep o E)) = false.

(* the removal mask check_strings computes for one side *)
Definition mask (o : opts) (l : list str) : list bool :=
  if has_removals o then removed_mask (o_rem o) l else map (fun _ => false) l.

Lemma mask_length o l : length (mask o l) = length l.
Proof. unfold mask, removed_mask. destruct (has_removals o); apply map_length. Qed.

Lemma keep_all_false {T} (l : list T) : keep (map (fun _ => false) l) l = l.
Proof. induction l as [|x l IH]; simpl; [reflexivity|]. rewrite IH. reflexivity. Qed.

Lemma keep_removed_mask rem l :
  keep (removed_mask rem l) l = filter (fun a => negb (existsb (fun r => contains r a) rem)) l.
Proof.
  unfold removed_mask. induction l as [|x l IH]; simpl; [reflexivity|].
  destruct (existsb (fun r => contains r x) rem); simpl; rewrite IH; reflexivity.
Qed.

Lemma keep_mask_prep o l : keep (mask o (drop_last_empty l)) (drop_last_empty l) = prep o l.
Proof.
  unfold prep, mask, has_removals, is_removed. destruct (o_rem o) as [|r rs].
  - rewrite keep_all_false. symmetry. apply filter_all_true. reflexivity.
  - apply keep_removed_mask.
Qed.

(* wrong_content walks triples (position, actual line, reference line) *)
Definition triples (a e : list str) := combine (combine (seq 0 (length a)) a) e.
Definition pair_of (t : nat * str * str) : str * str := (snd (fst t), snd t).

Lemma map_pair_combine a : forall e k,
  map pair_of (combine (combine (seq k (length a)) a) e) = combine a e.
Proof.
  induction a as [|x a IH]; intros [|y e] k; simpl; try reflexivity.
  f_equal. apply IH.
Qed.

(* the set of original line numbers marked ignorable: add_nat over the excused triples *)
Definition marks (f : nat -> nat) (I : list (nat * str * str)) (l : list nat) : list nat :=
  fold_left (fun l t => add_nat (f (fst (fst t))) l) I l.

Lemma add_nat_In n l i : In i (add_nat n l) <-> i = n \/ In i l.
Proof.
  unfold add_nat. destruct (mem_nat n l) eqn:E.
  - split; [right; assumption|]. intros [->|H]; [|exact H].
    apply existsb_eqb_In. exact E.
  - split; [intro H; apply in_app_or in H as [H|[<-|[]]]; auto|].
    intros [->|H]; apply in_or_app; [right; left; reflexivity|left; exact H].
Qed.

Lemma marks_In f I : forall l i,
  In i (marks f I l) <-> In i l \/ exists t, In t I /\ f (fst (fst t)) = i.
Proof.
  induction I as [|t I IH]; intros l i.
  - split; [left; assumption|intros [H|[t [[] _]]]; exact H].
  - change (marks f (t :: I) l) with (marks f I (add_nat (f (fst (fst t))) l)). split; intro H.
    + apply IH in H as [H|[t' [H1 H2]]]; [apply add_nat_In in H as [->|H]|];
        [right; exists t|left|right; exists t']; cbn [In]; auto.
    + apply IH. destruct H as [H|[t' [[<-|H1] H2]]];
        [left; apply add_nat_In; auto|left; apply add_nat_In; auto|right; exists t'; auto].
Qed.

(* once the permutation sample is full, further cases are dropped *)
Lemma cases_cap {T} m (c : list T) x : (length c <= m)%nat ->
  let c' := if Nat.ltb (length c) m then c ++ [x] else c in
  (length c' <= m)%nat /\ forall r, firstn m (c' ++ r) = firstn m (c ++ x :: r).
Proof.
  intro H. destruct (Nat.ltb_spec (length c) m) as [Hlt|Hge]; cbv zeta; split; try assumption.
  - rewrite app_length. simpl. lia.
  - intro r. rewrite <- app_assoc. reflexivity.
  - intro r. rewrite !firstn_app. replace (m - length c)%nat with O by lia. reflexivity.
Qed.

(* wrong_content when no compared pair diverges: the number of differences left, the lines marked on
   either side, and the first max_permutation_cases unexcused pairs *)
Lemma wrong_content_eq o orc amap emap : forall D nd aign eign cases,
  existsb (fun t => tri_div (can_ignore o orc (snd (fst t)) (snd t))) D = false ->
  (length cases <= o_maxperm o)%nat ->
  let ex t := excused o orc (pair_of t) in
  wrong_content o orc amap emap D nd aign eign cases =
  Some ((nd - length (filter ex D))%nat, marks amap (filter ex D) aign, marks emap (filter ex D) eign,
        firstn (o_maxperm o) (cases ++ map pair_of (filter (fun t => negb (ex t)) D))).
Proof.
  cbv zeta. unfold excused, pair_of. cbn [fst snd].
  induction D as [|t D IH]; intros nd aign eign cases Hdiv Hlen.
  - simpl. rewrite Nat.sub_0_r, app_nil_r, firstn_all2 by exact Hlen. reflexivity.
  - destruct t as [[i a] e]. cbn [existsb fst snd] in Hdiv. apply orb_false_iff in Hdiv as [Hd1 Hd2].
    cbn [wrong_content filter fst snd].
    destruct (can_ignore o orc a e); cbn [tri_true negb]; [| |discriminate Hd1].
    + rewrite IH by assumption. rewrite <- Nat.sub_add_distr. reflexivity.
    + destruct (cases_cap (o_maxperm o) cases (a, e) Hlen) as [Hl Hc].
      rewrite IH by assumption. rewrite Hc. reflexivity.
Qed.

Lemma strs_eqb_eq x y : strs_eqb x y = true <-> x = y.
Proof.
  revert y; induction x as [|p x IH]; intros [|q y]; simpl; split; intro H;
    try reflexivity; try discriminate.
  - apply andb_true_iff in H as [H1 H2]. apply str_eqb_eq in H1. apply IH in H2. congruence.
  - inversion H; subst. rewrite str_eqb_refl. apply IH. reflexivity.
Qed.

Lemma permutation_ok_iff cases :
  permutation_ok cases = true <-> Permutation (map fst cases) (map snd cases).
Proof. unfold permutation_ok. rewrite strs_eqb_eq. apply sort_strs_eq_iff. Qed.

(* the number of differences reported for the unexcused pairs Un of equally long texts *)
Definition ndiffs_of (m : nat) (Un : list (str * str)) : nat :=
  if Nat.ltb 0 (length Un) && Nat.leb (length Un) m
  then (if permutation_ok (firstn m Un) then O else length (firstn m Un)) else length Un.

Lemma ndiffs_of_zero m Un :
  ndiffs_of m Un = O <->
  Un = [] \/ ((length Un <= m)%nat /\ Permutation (map fst Un) (map snd Un)).
Proof.
  unfold ndiffs_of. destruct Un as [|u Un]; [cbn; tauto|]. set (L := u :: Un).
  change (Nat.ltb 0 (length L)) with true.
  destruct (Nat.leb_spec (length L) m) as [Hle|Hgt].
  - rewrite firstn_all2 by exact Hle. rewrite <- permutation_ok_iff.
    destruct (permutation_ok L); [intuition|].
    split; [discriminate|]. intros [H|[_ H]]; discriminate.
  - split; [discriminate|]. intros [H|[H _]]; [discriminate|lia].
Qed.

(* the differing pairs that wrong_content excuses, with their positions, and the original line numbers it marks
   for them on one side *)
Definition excused_triples (o : opts) (orc : poracle) (a e : list str) : list (nat * str * str) :=
  filter (fun t => excused o orc (pair_of t)) (filter (fun t => differs o (pair_of t)) (triples a e)).
Definition ignored_lines (o : opts) (l : list str) (I : list (nat * str * str)) : list nat :=
  marks (index_map (has_removals o) (kept_idx (mask o l) 0)) I [].

(* The closed form of check_strings on its equal-length branch, when no compared pair diverges.  Whether a
   reconstruction is made depends on options that no theorem here speaks of (preprocess, actual_path, ...):
   need_recon is left abstract on purpose. *)
Lemma check_strings_equal_lengths o orc A E :
  no_divergence o orc A E -> length (prep o A) = length (prep o E) ->
  let oa := drop_last_empty A in
  let oe := drop_last_empty E in
  let I := excused_triples o orc (prep o A) (prep o E) in
  let nd := ndiffs_of (o_maxperm o) (U o orc A E) in
  exists need_recon : bool,
    check_strings o orc A E =
    {| r_verdict := if Nat.ltb 0 nd then Fail else Pass; r_ndiffs := nd;
       r_aign := ignored_lines o oa I; r_eign := ignored_lines o oe I; r_arem := mask o oa; r_erem := mask o oe;
       r_recon := if need_recon
                  then Some (reconstruct (S (length oa + length oe)) (map (norm o) oa) (map (norm o) oe)
                                         O O (mask o oa) (mask o oe) (ignored_lines o oa I) (ignored_lines o oe I))
                  else None |}.
Proof.
  intros Hnd Hlen. unfold excused_triples, ignored_lines.
  set (D := filter (fun t => differs o (pair_of t)) (triples (prep o A) (prep o E))).
  assert (HU : map pair_of (filter (fun t => negb (excused o orc (pair_of t))) D) = U o orc A E).
  { unfold D, U. rewrite filter_filter, <- (map_pair_combine (prep o A) (prep o E) 0%nat), filter_map_comm. reflexivity. }
  assert (Hn : (length D - length (filter (fun t => excused o orc (pair_of t)) D))%nat = length (U o orc A E)).
  { rewrite <- HU, map_length. pose proof (filter_length_split (fun t => excused o orc (pair_of t)) D) as Hs.
    cbv beta in Hs. lia. }
  assert (Hdiv : existsb (fun t => tri_div (can_ignore o orc (snd (fst t)) (snd t))) D = false).
  { unfold no_divergence in Hnd. rewrite <- (map_pair_combine (prep o A) (prep o E) 0%nat), existsb_map in Hnd.
    unfold D. rewrite existsb_filter. exact Hnd. }
  (* the result of wrong_content is worked out first ... *)
  pose proof (wrong_content_eq o orc (index_map (has_removals o) (kept_idx (mask o (drop_last_empty A)) 0))
                (index_map (has_removals o) (kept_idx (mask o (drop_last_empty E)) 0)) D (length D) [] [] []
                Hdiv (Nat.le_0_l _)) as Hwc.
  cbn [app] in Hwc. rewrite HU, Hn in Hwc. set (res := Some _) in Hwc.
  (* ... and its left-hand side, with Hlen, brought to the spelling of the body of check_strings (kept lines as
     keep of the mask; mask, has_removals, differs, norm spelt out), so that one rewrite finds each there *)
  unfold D, triples in Hwc. rewrite <- (keep_mask_prep o A), <- (keep_mask_prep o E) in Hwc, Hlen.
  unfold mask, has_removals, differs, norm, pair_of in Hwc, Hlen. cbn [fst snd] in Hwc.
  unfold check_strings. rewrite (proj2 (Nat.eqb_eq _ _) Hlen), Hwc. eexists. reflexivity.
Qed.

Theorem length_mismatch_fails_proof o orc A E :
  length (prep o A) <> length (prep o E) ->
  r_verdict (check_strings o orc A E) <> Pass.
Proof.
  intro Hlen.
  (* the kept lines are among the lines: texts that keep different numbers of lines are not both empty, and the
     reported count max(...) is positive *)
  assert (Hpos : (0 < Nat.max (length (drop_last_empty A)) (length (drop_last_empty E)))%nat).
  { pose proof (filter_length_le (fun a => negb (is_removed o a)) (drop_last_empty A)).
    pose proof (filter_length_le (fun a => negb (is_removed o a)) (drop_last_empty E)). unfold prep in Hlen. lia. }
  (* Hlen in the spelling of the body of check_strings *)
  rewrite <- (keep_mask_prep o A), <- (keep_mask_prep o E) in Hlen. unfold mask, has_removals in Hlen.
  unfold check_strings. rewrite (proj2 (Nat.eqb_neq _ _) Hlen).
  destruct (wrong_number _ _ _ _ _ _ _ _ _ _ _ _ _ _) as [[aign eign]|]; cbn [r_verdict andb]; [|discriminate].
  rewrite (proj2 (Nat.ltb_lt _ _) Hpos). discriminate.
Qed.

(* PASS <-> same number of kept lines and (no unexcused pair, or few enough and a permutation) *)
Theorem check_strings_pass_iff o orc A E :
  no_divergence o orc A E ->
  (r_verdict (check_strings o orc A E) = Pass <-> Spec o orc A E).
Proof.
  intro Hnd. unfold Spec. destruct (Nat.eq_dec (length (prep o A)) (length (prep o E))) as [Hlen|Hlen].
  - destruct (check_strings_equal_lengths o orc A E Hnd Hlen) as [b ->].
    pose proof (ndiffs_of_zero (o_maxperm o) (U o orc A E)) as Hz.
    destruct (ndiffs_of _ _); cbn [Nat.ltb Nat.leb]; split.
    + intros _. split; [exact Hlen|apply Hz; reflexivity].
    + reflexivity.
    + discriminate.
    + intros [_ H]. apply Hz in H. discriminate.
  - split; [intro Hv; destruct (length_mismatch_fails_proof o orc A E Hlen Hv)|tauto].
Qed.

Corollary strict_pass_iff o orc A E :
  no_divergence o orc A E -> o_maxperm o = O ->
  (r_verdict (check_strings o orc A E) = Pass <->
   length (prep o A) = length (prep o E) /\ U o orc A E = []).
Proof.
  intros Hnd Hm. split; intro H.
  - apply (check_strings_pass_iff o orc A E Hnd) in H as [Hl [H|[H _]]]; split; try assumption.
    destruct (U o orc A E); [reflexivity|cbn [length] in H; lia].
  - apply (check_strings_pass_iff o orc A E Hnd). destruct H as [Hl H]. split; [exact Hl|left; exact H].
Qed.

Lemma combine_same_no_diff o orc a :
  filter (unexcused o orc) (combine a a) = [] /\ existsb (diverging o orc) (combine a a) = false.
Proof.
  induction a as [|x a [IH1 IH2]]; simpl; [split; reflexivity|].
  unfold unexcused at 1, diverging at 1, differs. cbn [fst snd]. rewrite str_eqb_refl. cbn [negb andb orb].
  split; assumption.
Qed.

Theorem refl_passes_proof o orc A : r_verdict (check_strings o orc A A) = Pass.
Proof.
  apply check_strings_pass_iff; [apply combine_same_no_diff|].
  split; [reflexivity|]. left. apply combine_same_no_diff.
Qed.

Lemma can_ignore_no_patterns o orc a e : o_npat o = O ->
  can_ignore o orc a e =
  if existsb (fun s => contains s e) (o_isub o) then TTrue else if str_eqb a e then TTrue else TFalse.
Proof. unfold can_ignore, line_fuel. intros ->. reflexivity. Qed.

Lemma no_divergence_no_patterns o orc A E : o_npat o = O -> no_divergence o orc A E.
Proof.
  intro Hp. apply existsb_false_iff. intros p _. unfold diverging. rewrite can_ignore_no_patterns by exact Hp.
  destruct (existsb _ (o_isub o)); [apply andb_false_r|]. destruct (str_eqb (fst p) (snd p)); apply andb_false_r.
Qed.

Lemma prep_no_removals o l : o_rem o = [] -> prep o l = drop_last_empty l.
Proof. intro Hr. unfold prep, is_removed. rewrite Hr. apply filter_all_true. reflexivity. Qed.

Lemma unexcused_no_patterns o orc p : o_lstrip o = false -> o_rstrip o = false -> o_npat o = O ->
  unexcused o orc p =
  negb (str_eqb (fst p) (snd p)) && negb (existsb (fun s => contains s (snd p)) (o_isub o)).
Proof.
  intros Hl Hr Hp. unfold unexcused, excused, differs, norm. rewrite can_ignore_no_patterns, Hl, Hr by exact Hp.
  cbn [normalize]. destruct (str_eqb (fst p) (snd p)); cbn [negb andb]; [reflexivity|].
  destruct (existsb _ (o_isub o)); reflexivity.
Qed.

Lemma eq_iff_same_length_no_diff a : forall e,
  length a = length e /\ filter (fun p : str * str => negb (str_eqb (fst p) (snd p))) (combine a e) = [] <-> a = e.
Proof.
  induction a as [|x a IH]; intros [|y e]; simpl; try (split; [intros [H _]|intro H]; discriminate); [tauto|].
  destruct (str_eqb x y) eqn:Exy; simpl.
  - apply str_eqb_eq in Exy. subst y. split.
    + intros [H1 H2]. f_equal. apply IH. split; [lia|exact H2].
    + intro H. injection H as H. apply IH in H as [H1 H2]. split; [lia|exact H2].
  - split; [intros [_ H]; discriminate|]. intro H. injection H as -> _. rewrite str_eqb_refl in Exy. discriminate.
Qed.

Definition plain (o : opts) : Prop :=
  o_lstrip o = false /\ o_rstrip o = false /\ o_isub o = [] /\ o_npat o = O /\ o_rem o = [] /\ o_maxperm o = O.

Theorem plain_sensitive_proof o orc A E : plain o ->
  (r_verdict (check_strings o orc A E) = Pass <-> drop_last_empty A = drop_last_empty E).
Proof.
  intros (Hl & Hr & Hs & Hp & Hrem & Hm).
  pose proof (strict_pass_iff o orc A E (no_divergence_no_patterns o orc A E Hp) Hm) as Hst.
  unfold U in Hst. rewrite !prep_no_removals in Hst by exact Hrem.
  rewrite (filter_ext (unexcused o orc) (fun p => negb (str_eqb (fst p) (snd p)))) in Hst.
  - split; intro H; [apply eq_iff_same_length_no_diff, Hst, H|apply Hst, eq_iff_same_length_no_diff, H].
  - intro p. rewrite unexcused_no_patterns, Hs by assumption. apply andb_true_r.
Qed.

Lemma splitlines_after_cr s cur :
  match s with c :: _ => Z.eqb c 10 = false | [] => True end ->
  splitlines_aux s cur true = splitlines_aux s cur false.
Proof. destruct s; [reflexivity|]. cbn [splitlines_aux andb]. intros ->. reflexivity. Qed.

Lemma splitlines_univ_aux s : forall cur,
  splitlines_aux (univ_nl s) cur false = splitlines_aux s cur false.
Proof.
  induction s as [|c s IH]; intro cur; [reflexivity|].
  cbn [univ_nl]. destruct (Z.eqb_spec c 13) as [->|Hc].
  - destruct s as [|d s']; [reflexivity|].
    destruct (Z.eqb_spec d 10) as [->|Hd].
    + (* \r\n: the induction hypothesis for the tail \n... is the goal *)
      exact (IH cur).
    + (* a lone \r ends the line like the \n it becomes; the next line starts empty on both sides *)
      apply Z.eqb_neq in Hd.
      change (splitlines_aux (13 :: d :: s') cur false) with (rev cur :: splitlines_aux (d :: s') [] true).
      rewrite splitlines_after_cr by exact Hd. rewrite <- IH. reflexivity.
  - apply Z.eqb_neq in Hc. cbn [splitlines_aux andb]. destruct (is_linebreak c); rewrite ?Hc, IH; reflexivity.
Qed.

Theorem splitlines_univ_nl_proof s : splitlines (univ_nl s) = splitlines s.
Proof. apply splitlines_univ_aux. Qed.

Theorem string_vs_own_file_passes_proof o orc s :
  r_verdict (check_string_against_file o orc s s) = Pass.
Proof. unfold check_string_against_file. rewrite splitlines_univ_nl_proof. apply refl_passes_proof. Qed.

Theorem file_vs_copy_passes_proof o orc s : r_verdict (check_file o orc s s) = Pass.
Proof. unfold check_file. apply refl_passes_proof. Qed.
