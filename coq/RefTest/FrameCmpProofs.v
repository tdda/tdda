(* check_dataframe (C05): each structural finding is empty exactly when its clause of structure_ok holds; the verdict is
   "same" iff structure, row count and the selected values agree, and no selection can raise; the corollaries for a
   copy and for each kind of difference. *)
From Coq Require Import ZArith List Bool Lia.
From Tdda Require Import Base.ListFacts Base.Sexp Base.Str RefTest.FrameCmp.
Import ListNotations.
Open Scope Z_scope.

Lemma is_nil_s_true l : is_nil_s l = true <-> l = [].
Proof. destruct l; simpl; split; congruence. Qed.

Lemma strs_eqb_eq a b : strs_eqb a b = true <-> a = b.
Proof.
  revert b; induction a as [|x a IH]; intros [|y b]; simpl; split; intro H; try reflexivity; try discriminate.
  - apply andb_true_iff in H as [H1 H2]. apply str_eqb_eq in H1. apply IH in H2. congruence.
  - inversion H; subst. rewrite str_eqb_refl. apply IH. reflexivity.
Qed.

Lemma has_lookup f c : has f c = true <-> exists col, lookup f c = Some col.
Proof.
  unfold has, names. induction f as [|x f IH]; cbn [map mem_str lookup].
  - split; [discriminate|intros [col H]; discriminate].
  - rewrite (str_eqb_sym c (c_name x)). destruct (str_eqb (c_name x) c); cbn [orb].
    + split; [intros _; eexists; reflexivity|reflexivity].
    + exact IH.
Qed.

Lemma count_diffs_nonneg a : forall b, 0 <= count_diffs a b.
Proof. induction a as [|x a IH]; intros [|y b]; simpl; try lia. specialize (IH b). destruct (cell_differs x y); lia. Qed.

(* per-cell agreement: equal tokens or both null, position by position *)
Fixpoint cells_agree (a b : list (option Z)) : Prop :=
  match a, b with
  | x :: a', y :: b' => cell_differs x y = false /\ cells_agree a' b'
  | _, _ => True
  end.

Lemma count_diffs_zero a : forall b, count_diffs a b = 0 <-> cells_agree a b.
Proof.
  induction a as [|x a IH]; intros [|y b]; simpl; try tauto.
  pose proof (count_diffs_nonneg a b).
  destruct (cell_differs x y); split.
  - lia.
  - intros [H1 _]. discriminate.
  - intro H0. split; [reflexivity|]. apply IH. lia.
  - intros [_ H1]. apply IH in H1. lia.
Qed.

Lemma ndiff_zero_iff df ref cd :
  fold_right Z.add 0 (map (fun c => match lookup df c, lookup ref c with
                                    | Some a, Some r => count_diffs (c_cells a) (c_cells r)
                                    | _, _ => 0 end) cd) = 0 <->
  forall c a r, In c cd -> lookup df c = Some a -> lookup ref c = Some r -> cells_agree (c_cells a) (c_cells r).
Proof.
  rewrite sum_zero_iff.
  - split.
    + intros H c a r Hc Ha Hr. specialize (H c Hc). rewrite Ha, Hr in H. apply count_diffs_zero. exact H.
    + intros H c Hc. destruct (lookup df c) as [a|] eqn:Ea; [|reflexivity]. destruct (lookup ref c) as [r|] eqn:Er; [|reflexivity].
      apply count_diffs_zero. exact (H c a r Hc Ea Er).
  - intros c _. destruct (lookup df c); [|lia]. destruct (lookup ref c); [|lia]. apply count_diffs_nonneg.
Qed.

(* the documented meaning of "compare as correct", on the columns selected for each kind of check *)
Definition structure_ok (isd : Z -> bool) (o : dopts) (df ref : frame) : Prop :=
  (forall c, In c (resolve (d_types o) ref) -> has df c = true) /\
  (forall c a r, In c (resolve (d_types o) ref) -> lookup df c = Some a -> lookup ref c = Some r ->
                 types_match isd (d_level o) (eff_dtype a) (eff_dtype r) = true) /\
  (forall c, In c (resolve (d_extra o) df) -> has df c = true -> has ref c = true) /\
  (match d_order o with
   | FNone => True
   | _ => filter (fun c => mem_str c (resolve (d_order o) ref) && has ref c) (names df) =
          filter (fun c => mem_str c (resolve (d_order o) ref) && has df c) (names ref)
   end).

Definition values_ok (o : dopts) (df ref : frame) : Prop :=
  forall c, In c (resolve (d_data o) ref) ->
    has df c = true /\
    forall a r, lookup df c = Some a -> lookup ref c = Some r -> cells_agree (c_cells a) (c_cells r).

(* selected columns are reference columns: the calls the real code makes (ref_df[c]) cannot raise *)
Definition selections_in_ref (o : dopts) (ref : frame) : Prop :=
  (forall c, In c (resolve (d_types o) ref) -> has ref c = true) /\
  (forall c, In c (resolve (d_data o) ref) -> has ref c = true).

(* The four structural findings of check_dataframe and their conjunction (its local lets missing, wrong_types,
   extra, wrong_order and same0, word for word): each is empty exactly when its clause of structure_ok holds. *)
Definition missing (o : dopts) (df ref : frame) : list str :=
  filter (fun c => negb (has df c)) (resolve (d_types o) ref).
Definition wrong_types (isd : Z -> bool) (o : dopts) (df ref : frame) : list str :=
  filter (fun c => match lookup df c, lookup ref c with
                   | Some a, Some r => negb (types_match isd (d_level o) (eff_dtype a) (eff_dtype r))
                   | _, _ => false end) (resolve (d_types o) ref).
Definition extra (o : dopts) (df ref : frame) : list str :=
  filter (fun c => has df c && negb (has ref c)) (dedup_strs (resolve (d_extra o) df)).
Definition wrong_order (o : dopts) (df ref : frame) : bool :=
  match d_order o with
  | FNone => false
  | _ => if is_nil_s (missing o df ref) then
           negb (strs_eqb (filter (fun c => mem_str c (resolve (d_order o) ref) && has ref c) (names df))
                          (filter (fun c => mem_str c (resolve (d_order o) ref) && has df c) (names ref)))
         else false
  end.
Definition structure_agrees (isd : Z -> bool) (o : dopts) (df ref : frame) : bool :=
  is_nil_s (missing o df ref) && is_nil_s (extra o df ref) && is_nil_s (wrong_types isd o df ref) &&
  negb (wrong_order o df ref).

Lemma absent_nil df l : filter (fun c => negb (has df c)) l = [] <-> forall c, In c l -> has df c = true.
Proof.
  split; intro H.
  - intros c Hc. apply negb_false_iff. exact (proj1 (filter_nil_iff _ _) H c Hc).
  - apply filter_nil_iff. intros c Hc. rewrite (H c Hc). reflexivity.
Qed.

Lemma missing_nil o df ref : missing o df ref = [] <-> forall c, In c (resolve (d_types o) ref) -> has df c = true.
Proof. apply absent_nil. Qed.

Lemma wrong_types_nil isd o df ref :
  wrong_types isd o df ref = [] <->
  forall c a r, In c (resolve (d_types o) ref) -> lookup df c = Some a -> lookup ref c = Some r ->
                types_match isd (d_level o) (eff_dtype a) (eff_dtype r) = true.
Proof.
  unfold wrong_types. split; intro H.
  - intros c a r Hc Ha Hr. pose proof (proj1 (filter_nil_iff _ _) H c Hc) as Hf. cbv beta in Hf.
    rewrite Ha, Hr in Hf. apply negb_false_iff. exact Hf.
  - apply filter_nil_iff. intros c Hc. destruct (lookup df c) as [a|] eqn:Ea; [|reflexivity].
    destruct (lookup ref c) as [r|] eqn:Er; [|reflexivity]. rewrite (H c a r Hc Ea Er). reflexivity.
Qed.

Lemma mem_str_dedup_strs x l : mem_str x (dedup_strs l) = mem_str x l.
Proof.
  induction l as [|y l IH]; [reflexivity|]. cbn [dedup_strs].
  destruct (mem_str y l) eqn:E; cbn [mem_str].
  - rewrite IH. destruct (str_eqb x y) eqn:Exy; [|reflexivity].
    apply str_eqb_eq in Exy. subst. rewrite E. reflexivity.
  - rewrite IH. reflexivity.
Qed.

Lemma extra_nil o df ref :
  extra o df ref = [] <-> forall c, In c (resolve (d_extra o) df) -> has df c = true -> has ref c = true.
Proof.
  unfold extra. split; intro H.
  - intros c Hc Hd. apply mem_str_In in Hc. rewrite <- mem_str_dedup_strs in Hc. apply mem_str_In in Hc.
    pose proof (proj1 (filter_nil_iff _ _) H c Hc) as Hf. cbv beta in Hf. rewrite Hd in Hf. apply negb_false_iff. exact Hf.
  - apply filter_nil_iff. intros c Hc. apply mem_str_In in Hc. rewrite mem_str_dedup_strs in Hc. apply mem_str_In in Hc.
    destruct (has df c) eqn:Ed; [|reflexivity]. rewrite (H c Hc Ed). reflexivity.
Qed.

Lemma wrong_order_false o df ref : missing o df ref = [] ->
  (wrong_order o df ref = false <->
   match d_order o with
   | FNone => True
   | _ => filter (fun c => mem_str c (resolve (d_order o) ref) && has ref c) (names df) =
          filter (fun c => mem_str c (resolve (d_order o) ref) && has df c) (names ref)
   end).
Proof.
  intro Hm. unfold wrong_order. rewrite Hm.
  destruct (d_order o); [|split; trivial|];
    (split; intro H; [apply negb_false_iff, strs_eqb_eq in H|apply negb_false_iff, strs_eqb_eq]; exact H).
Qed.

Lemma structure_agrees_iff isd o df ref : structure_agrees isd o df ref = true <-> structure_ok isd o df ref.
Proof.
  unfold structure_agrees, structure_ok. split.
  - intro H. apply andb_true_iff in H as [H Hwo]. apply andb_true_iff in H as [H Hwt].
    apply andb_true_iff in H as [Hm He]. apply is_nil_s_true in Hm, He, Hwt. apply negb_true_iff in Hwo.
    split; [apply missing_nil, Hm|]. split; [apply wrong_types_nil, Hwt|]. split; [apply extra_nil, He|].
    apply (wrong_order_false o df ref Hm), Hwo.
  - intros (H1 & H2 & H3 & H4). apply missing_nil in H1. apply (wrong_order_false o df ref H1) in H4.
    apply wrong_types_nil in H2. apply extra_nil in H3. rewrite H1, H2, H3, H4. reflexivity.
Qed.

Theorem check_dataframe_spec_proof isd o df ref :
  selections_in_ref o ref ->
  exists v, check_dataframe isd o df ref = Done v /\
    (v_same v = true <-> structure_ok isd o df ref /\ nrows df = nrows ref /\ values_ok o df ref).
Proof.
  intros [Hsel_t Hsel_d]. unfold check_dataframe.
  rewrite (proj2 (existsb_false_iff _ _)) by (intros c Hc; rewrite (Hsel_t c Hc); apply andb_false_r).
  (* the findings recur in every verdict record: folded, the steps below work on a small goal *)
  fold (missing o df ref). fold (wrong_types isd o df ref) (extra o df ref) (wrong_order o df ref).
  fold (structure_agrees isd o df ref).
  pose proof (structure_agrees_iff isd o df ref) as Hs. destruct (structure_agrees isd o df ref); cbn [negb orb].
  2:{ eexists. split; [reflexivity|]. cbn [v_same]. split; [discriminate|]. intros [H _]. apply Hs in H. discriminate. }
  pose proof (proj1 Hs eq_refl) as Hstruct.
  destruct (Nat.eqb_spec (nrows df) (nrows ref)) as [Erows|Erows]; cbn [negb].
  2:{ eexists. split; [reflexivity|]. cbn [v_same]. split; [discriminate|]. intros (_ & Hr & _). contradiction. }
  unfold values_ok. destruct (resolve (d_data o) ref) as [|d0 cd'] eqn:Ecd.
  - eexists. split; [reflexivity|]. cbn [v_same]. split; [intros _|reflexivity].
    split; [exact Hstruct|]. split; [exact Erows|]. intros c [].
  - rewrite <- Ecd in *. set (cd := resolve (d_data o) ref) in *.
    (* no type-checked column is missing, so no value-checked column is left out *)
    rewrite (proj2 (missing_nil o df ref) (proj1 Hstruct)), (filter_all_true _ cd) by reflexivity.
    destruct (filter (fun c => negb (has df c)) cd) as [|a0 absent] eqn:Eabs.
    + rewrite (proj2 (existsb_false_iff _ _)) by (intros c Hc; rewrite (Hsel_d c Hc); reflexivity).
      eexists. split; [reflexivity|]. cbn [v_same]. split.
      * intro Hz. apply Z.eqb_eq in Hz. split; [exact Hstruct|]. split; [exact Erows|]. intros c Hc. split.
        -- exact (proj1 (absent_nil df cd) Eabs c Hc).
        -- intros a r. apply (proj1 (ndiff_zero_iff df ref cd) Hz c a r Hc).
      * intros (_ & _ & Hv). apply Z.eqb_eq, ndiff_zero_iff. intros c a r Hc. apply (Hv c Hc).
    + eexists. split; [reflexivity|]. cbn [v_same]. split; [discriminate|].
      intros (_ & _ & Hv). rewrite (proj2 (absent_nil df cd)) in Eabs by (intros c Hc; apply (Hv c Hc)). discriminate.
Qed.

Lemma cell_differs_refl x : cell_differs x x = false.
Proof. destruct x; simpl; [rewrite Z.eqb_refl; reflexivity|reflexivity]. Qed.

Lemma cells_agree_refl a : cells_agree a a.
Proof. induction a as [|x a IH]; simpl; [exact I|]. split; [apply cell_differs_refl|exact IH]. Qed.

Lemma types_match_refl isd level t : types_match isd level t t = true.
Proof. unfold types_match. rewrite str_eqb_refl, orb_true_r. reflexivity. Qed.

Definition flag_in (fl : flag) (f : frame) : Prop :=
  match fl with FList l => forall c, In c l -> has f c = true | _ => True end.

Lemma resolve_in fl f c : flag_in fl f -> In c (resolve fl f) -> has f c = true.
Proof.
  destruct fl; cbn [flag_in resolve]; intros H Hc; [|destruct Hc|apply H; exact Hc].
  unfold has. apply mem_str_In. exact Hc.
Qed.

Theorem copy_passes_proof isd o df :
  flag_in (d_types o) df -> flag_in (d_data o) df ->
  exists v, check_dataframe isd o df df = Done v /\ v_same v = true.
Proof.
  intros Ht Hd.
  pose proof (fun c => resolve_in (d_types o) df c Ht) as Hst. pose proof (fun c => resolve_in (d_data o) df c Hd) as Hsd.
  destruct (check_dataframe_spec_proof isd o df df) as [v [Hv Hiff]]; [split; assumption|].
  exists v. split; [exact Hv|]. apply Hiff. split; [|split; [reflexivity|]].
  - split; [exact Hst|]. split.
    + intros c a r _ Ha Hr. rewrite Ha in Hr. injection Hr as <-. apply types_match_refl.
    + split; [intros c Hc Hdf; exact Hdf|]. destruct (d_order o); reflexivity || exact I.
  - intros c Hc. split; [exact (Hsd c Hc)|].
    intros a r Ha Hr. rewrite Ha in Hr. injection Hr as <-. apply cells_agree_refl.
Qed.

Theorem difference_fails_proof isd o df ref :
  selections_in_ref o ref ->
  ( (exists c, In c (resolve (d_types o) ref) /\ has df c = false) \/                                 (* missing / renamed column *)
    (exists c a r, In c (resolve (d_types o) ref) /\ lookup df c = Some a /\ lookup ref c = Some r /\
                   types_match isd (d_level o) (eff_dtype a) (eff_dtype r) = false) \/                (* retyped column *)
    (exists c, In c (resolve (d_extra o) df) /\ has df c = true /\ has ref c = false) \/              (* extra column *)
    (d_order o <> FNone /\
     filter (fun c => mem_str c (resolve (d_order o) ref) && has ref c) (names df) <>
     filter (fun c => mem_str c (resolve (d_order o) ref) && has df c) (names ref)) \/                 (* moved column *)
    nrows df <> nrows ref \/                                                                          (* row count *)
    (exists c a r, In c (resolve (d_data o) ref) /\ lookup df c = Some a /\ lookup ref c = Some r /\
                   ~ cells_agree (c_cells a) (c_cells r)) ) ->                                          (* a checked value *)
  exists v, check_dataframe isd o df ref = Done v /\ v_same v = false.
Proof.
  intros Hsel Hdiff. destruct (check_dataframe_spec_proof isd o df ref Hsel) as [v [Hv Hiff]].
  exists v. split; [exact Hv|]. destruct (v_same v) eqn:E; [|reflexivity]. exfalso.
  destruct (proj1 Hiff eq_refl) as ((Hs1 & Hs2 & Hs3 & Hs4) & Hrows & Hvals).
  destruct Hdiff as [(c & Hc & Hh)|[(c & a & r & Hc & Ha & Hr & Htm)|[(c & Hc & Hd & Hh)|[(Hno & Hord)|[Hr|(c & a & r & Hc & Ha & Hr & Hag)]]]]].
  - rewrite (Hs1 c Hc) in Hh. discriminate.
  - rewrite (Hs2 c a r Hc Ha Hr) in Htm. discriminate.
  - rewrite (Hs3 c Hc Hd) in Hh. discriminate.
  - destruct (d_order o); [apply Hord; exact Hs4|congruence|apply Hord; exact Hs4].
  - contradiction.
  - destruct (Hvals c Hc) as [_ Hall]. apply Hag. apply Hall; assumption.
Qed.

Lemma types_match_strict isd t1 t2 : types_match isd 0 t1 t2 = str_eqb t1 t2.
Proof. unfold types_match. reflexivity. Qed.
