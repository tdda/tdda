(* C11: the raw literal gentest.quote_raw writes for an ignore-pattern is read back by the Python lexer as that pattern. *)
From Coq Require Import ZArith List Bool.
From Tdda Require Import Base.Sexp Base.Str Gentest.Quote.
Import ListNotations.
Open Scope Z_scope.

Definition no_nl (s : str) : Prop := memq 10 s = false /\ memq 13 s = false.

Lemma memq_cons c d s : memq c (d :: s) = Z.eqb c d || memq c s.
Proof. reflexivity. Qed.

Lemma memq_head c d s : memq c (d :: s) = false -> Z.eqb d c = false /\ memq c s = false.
Proof. rewrite memq_cons, Z.eqb_sym. apply orb_false_iff. Qed.

Lemma lex1_skip q esc c t : Z.eqb c q = false -> Z.eqb c 10 = false -> Z.eqb c 13 = false ->
  lex1 q esc (c :: t) =
  match lex1 q (if esc then false else Z.eqb c bs) t with Some (b, rest) => Some (c :: b, rest) | None => None end.
Proof. intros H1 H2 H3. cbn [lex1]. rewrite H1, H2, H3. destruct esc; reflexivity. Qed.

Lemma lex1_body q s last rest : forall esc,
  memq q (s ++ [last]) = false -> no_nl (s ++ [last]) -> last <> bs ->
  lex1 q esc (s ++ last :: q :: rest) = Some (s ++ [last], rest).
Proof.
  induction s as [|c s IH]; intros esc Hq [Hn Hr] Hb; cbn [app];
    apply memq_head in Hq as [Hq1 Hq2]; apply memq_head in Hn as [Hn1 Hn2]; apply memq_head in Hr as [Hr1 Hr2];
    rewrite lex1_skip by assumption.
  - replace (if esc then false else Z.eqb last bs) with false by (destruct esc; [|symmetry; apply Z.eqb_neq]; trivial).
    cbn [lex1]. rewrite Z.eqb_refl. reflexivity.
  - rewrite IH by (try split; assumption). reflexivity.
Qed.

Lemma no_triple_across q a last b : last <> q -> contains [q; q; q] (a ++ [last]) = false ->
  startswith [q; q; q] (a ++ last :: b) = false.
Proof.
  intros Hl Hc.
  assert (Hb : existsb (Z.eqb last) [q; q; q] = false) by (cbn [existsb]; rewrite (proj2 (Z.eqb_neq last q) Hl); reflexivity).
  rewrite startswith_blocked, <- (startswith_blocked _ a last []) by (exact Hb || discriminate).
  destruct a; cbn [app contains] in Hc; apply orb_false_iff in Hc as [Hc _]; exact Hc.
Qed.

Lemma lex3_found q s : startswith [q; q; q] s = true -> lex3 q false s = Some ([], skipn 3 s).
Proof. intro H. destruct s; [discriminate|]. cbn [lex3]. rewrite H. reflexivity. Qed.

Lemma lex3_skip q esc c t : startswith [q; q; q] (c :: t) = false ->
  lex3 q esc (c :: t) =
  match lex3 q (if esc then false else Z.eqb c bs) t with Some (b, rest) => Some (c :: b, rest) | None => None end.
Proof. intro H. cbn [lex3]. rewrite H. destruct esc; reflexivity. Qed.

Lemma lex3_body q s last rest : forall esc,
  contains [q; q; q] (s ++ [last]) = false -> last <> q -> last <> bs ->
  lex3 q esc (s ++ last :: q :: q :: q :: rest) = Some (s ++ [last], rest).
Proof.
  induction s as [|c s IH]; intros esc Hc Hlq Hlb;
    pose proof (no_triple_across q _ last (q :: q :: q :: rest) Hlq Hc) as Hs; cbn [app] in *; rewrite (lex3_skip _ _ _ _ Hs);
    cbn [contains] in Hc; apply orb_false_iff in Hc as [_ Hc].
  - replace (if esc then false else Z.eqb last bs) with false by (destruct esc; [|symmetry; apply Z.eqb_neq]; trivial).
    rewrite lex3_found; [reflexivity|]. cbn [startswith]. rewrite Z.eqb_refl. reflexivity.
  - rewrite IH by assumption. reflexivity.
Qed.

Lemma lex_raw_single q s last rest : Z.eqb q sq || Z.eqb q dq = true ->
  memq q (s ++ [last]) = false -> no_nl (s ++ [last]) -> last <> bs ->
  lex_raw_literal ([114; q] ++ (s ++ [last]) ++ [q] ++ rest) = Some (s ++ [last], rest).
Proof.
  intros Hq Hm Hnl Hb. cbn [app lex_raw_literal]. rewrite Hq, <- app_assoc.
  replace (startswith [q; q] (s ++ [last] ++ q :: rest)) with false; [apply lex1_body; assumption|].
  destruct s as [|c s']; apply memq_head in Hm as [Hc _]; cbn [app startswith]; rewrite Z.eqb_sym, Hc; reflexivity.
Qed.

Lemma lex_raw_triple q s last rest : Z.eqb q sq || Z.eqb q dq = true ->
  contains [q; q; q] (s ++ [last]) = false -> last <> q -> last <> bs ->
  lex_raw_literal ([114; q; q; q] ++ (s ++ [last]) ++ [q; q; q] ++ rest) = Some (s ++ [last], rest).
Proof.
  intros Hq Hc Hlq Hlb. cbn [app lex_raw_literal]. rewrite Hq. cbn [startswith]. rewrite Z.eqb_refl. cbn [andb skipn].
  rewrite <- app_assoc. apply lex3_body; assumption.
Qed.

(* a pattern without line break whose last character is neither a backslash nor a quote is written as a raw
   literal that the Python lexer reads back as exactly that pattern (or quote_raw falls back to repr) *)
Theorem quote_raw_roundtrip_last s0 last : last <> bs -> last <> sq -> last <> dq ->
  let s := s0 ++ [last] in
  no_nl s ->
  match quote_raw s with
  | QRaw t => forall rest, lex_raw_literal (t ++ rest) = Some (s, rest)
  | QRepr => True
  end.
Proof.
  intros Hb Hs Hd s Hnl. unfold quote_raw.
  destruct (memq sq s) eqn:E1; [destruct (memq dq s) eqn:E2; [destruct (contains [sq; sq; sq] s) eqn:E3;
    [destruct (contains [dq; dq; dq] s) eqn:E4; [exact I|]|]|]|]; cbn [negb]; intro rest; rewrite <- !app_assoc.
  - apply (lex_raw_triple dq); [reflexivity|assumption..].
  - apply (lex_raw_triple sq); [reflexivity|assumption..].
  - apply (lex_raw_single dq); [reflexivity|assumption..].
  - apply (lex_raw_single sq); [reflexivity|assumption..].
Qed.
