(* C11: the numeric branch of gentest.is_date_like.  The regular expression delivers three
   numbers (n1, n2, n3); the code tries dd/mm/yyyy, yyyy/mm/dd and mm/dd/yyyy in that order and
   builds a datetime for each plausible reading.  datetime(y, m, d) raises ValueError for dates
   that do not exist; poss_datetime returns None instead. *)
From Coq Require Import ZArith List Bool Lia.
From Tdda Require Import Base.Sexp.
Import ListNotations.
Open Scope Z_scope.

Definition leap (y : Z) : bool := (Z.eqb (y mod 4) 0 && negb (Z.eqb (y mod 100) 0)) || Z.eqb (y mod 400) 0.
Definition days_in_month (y m : Z) : Z :=
  if Z.eqb m 2 then (if leap y then 29 else 28)
  else if Z.eqb m 4 || Z.eqb m 6 || Z.eqb m 9 || Z.eqb m 11 then 30 else 31.

(* datetime.datetime(y, m, d): Some date, or None where Python raises ValueError *)
Definition date := (Z * Z * Z)%type.
Definition poss_datetime (y m d : Z) : option date :=
  if Z.leb 1 y && Z.leb y 9999 && Z.leb 1 m && Z.leb m 12 && Z.leb 1 d && Z.leb d (days_in_month y m)
  then Some (y, m, d) else None.

Definition date_leb (a b : date) : bool :=
  let '(y1, m1, d1) := a in let '(y2, m2, d2) := b in
  Z.ltb y1 y2 || (Z.eqb y1 y2 && (Z.ltb m1 m2 || (Z.eqb m1 m2 && Z.leb d1 d2))).

Definition in_range (range : option (date * date)) (d : date) : bool :=
  match range with None => true | Some (lo, hi) => date_leb lo d && date_leb d hi end.

Definition reading_ok (range : option (date * date)) (y m d : Z) : bool :=
  match poss_datetime y m d with Some dt => in_range range dt | None => false end.

(* is_date_like, numeric branch: does the line count as a (plausible) date? *)
Definition is_date_like_num (range : option (date * date)) (n1 n2 n3 : Z) : bool :=
  let day n := Z.leb 1 n && Z.leb n 31 in
  let month n := Z.leb 1 n && Z.leb n 12 in
  (day n1 && month n2 && reading_ok range n3 n2 n1)
  || (day n3 && month n2 && reading_ok range n1 n2 n3)
  || (day n2 && month n1 && reading_ok range n3 n1 n2).

(* the alphabetic branches: (D, M, Y) with M from the month table *)
Definition is_date_like_alpha (range : option (date * date)) (D M Y : Z) : bool :=
  Z.leb 1 D && Z.leb D 31 && reading_ok range Y M D.

(* a real date, in range, in one of the three orders *)
Definition some_reading (range : option (date * date)) (n1 n2 n3 : Z) : Prop :=
  (exists dt, poss_datetime n3 n2 n1 = Some dt /\ in_range range dt = true) \/
  (exists dt, poss_datetime n1 n2 n3 = Some dt /\ in_range range dt = true) \/
  (exists dt, poss_datetime n3 n1 n2 = Some dt /\ in_range range dt = true).

Lemma poss_datetime_bounds y m d dt : poss_datetime y m d = Some dt ->
  1 <= m <= 12 /\ 1 <= d <= 31 /\ 1 <= y <= 9999.
Proof.
  unfold poss_datetime. destruct (_ && _) eqn:E; [|discriminate]. intros _.
  repeat (apply andb_true_iff in E as [E ?]).
  assert (days_in_month y m <= 31).
  { unfold days_in_month. destruct (Z.eqb m 2); [destruct (leap y); lia|]. destruct (_ || _); lia. }
  lia.
Qed.

Lemma reading_ok_iff range y m d :
  reading_ok range y m d = true <-> exists dt, poss_datetime y m d = Some dt /\ in_range range dt = true.
Proof.
  unfold reading_ok. destruct (poss_datetime y m d) as [dt|]; split.
  - eauto.
  - intros [dt' [E H]]. injection E as <-. exact H.
  - discriminate.
  - intros [dt' [E _]]. discriminate.
Qed.

(* a reading that is a real date passes the preliminary day and month tests, which therefore decide nothing *)
Lemma reading_ok_bounds range y m d : reading_ok range y m d = true ->
  Z.leb 1 d && Z.leb d 31 && (Z.leb 1 m && Z.leb m 12) = true.
Proof.
  intro H. apply reading_ok_iff in H as [dt [H _]]. apply poss_datetime_bounds in H as ((H1 & H2) & (H3 & H4) & _).
  apply Z.leb_le in H1, H2, H3, H4. rewrite H1, H2, H3, H4. reflexivity.
Qed.

(* total, and exact: the line is taken for a date exactly when one of the three readings is a real date
   (in the plausible range, when one is given) *)
Theorem is_date_like_num_spec_proof range n1 n2 n3 :
  is_date_like_num range n1 n2 n3 = true <-> some_reading range n1 n2 n3.
Proof.
  assert (Hab : forall b r, (r = true -> b = true) -> b && r = r)
    by (intros b [] H; [rewrite H; reflexivity|apply andb_false_r]).
  unfold is_date_like_num, some_reading. rewrite !Hab by apply reading_ok_bounds. split.
  - intro H. apply orb_true_iff in H as [H|H]; [apply orb_true_iff in H as [H|H]|];
      apply reading_ok_iff in H; auto.
  - intros [H|[H|H]]; apply reading_ok_iff in H; rewrite H, ?orb_true_r; reflexivity.
Qed.

(* (range? n1 n2 n3) -> (numeric verdict; poss_datetime for the three readings) *)
Definition sx_date (s : sexp) : date := (sx_Z (sx_nth 0 s), sx_Z (sx_nth 1 s), sx_Z (sx_nth 2 s)).
Definition datelike_entry (s : sexp) : sexp :=
  let range := sx_opt (fun r => (sx_date (sx_nth 0 r), sx_date (sx_nth 1 r))) (sx_nth 0 s) in
  let n1 := sx_Z (sx_nth 1 s) in let n2 := sx_Z (sx_nth 2 s) in let n3 := sx_Z (sx_nth 3 s) in
  L [of_bool (is_date_like_num range n1 n2 n3);
     of_bool (match poss_datetime n1 n2 n3 with Some _ => true | None => false end);
     of_bool (is_date_like_alpha range n1 n2 n3)].
