(* C11, C12: the logic core of gentest (Gentest/Script.v).  Generated test names are distinct and always found;
   the generated test passes when the command behaves as before, and each change is reported by its own check. *)
From Coq Require Import ZArith List Lia.
From Tdda Require Import Base.ListFacts Base.Sexp Base.Str Rexpy.Chars RefTest.CheckStrings
  RefTest.CheckStringsProofs RefTest.Artefacts RefTest.ReconProofs Rexpy.DecProofs Gentest.Script.
Import ListNotations.
Open Scope Z_scope.

Lemma qualify_Some_inv fuel base names : forall q n q',
  qualify fuel base names q = Some (n, q') -> mem_str n names = false /\ q <= q'.
Proof.
  induction fuel as [|f IH]; intros q n q' H; [discriminate|]. cbn [qualify] in H.
  destruct (mem_str (base ++ dec_of_Z (q + 1)) names) eqn:E.
  - destruct (IH _ _ _ H) as [H1 H2]. split; [exact H1|lia].
  - injection H as <- <-. split; [exact E|lia].
Qed.

Lemma test_name_fresh idc names q b n names' q' :
  test_name idc names q b = Some (n, names', q') -> mem_str n names = false /\ names' = names ++ [n].
Proof.
  unfold test_name. destruct (mem_str (sanitize idc b) names) eqn:E.
  - destruct (qualify _ _ names q) as [[n0 q0]|] eqn:Eq; [|discriminate]. intro H. injection H as <- <- _.
    split; [exact (proj1 (qualify_Some_inv _ _ _ _ _ _ Eq))|reflexivity].
  - intro H. injection H as <- <- _. split; [exact E|reflexivity].
Qed.

Theorem test_names_distinct idc bs : forall names q ns,
  NoDup names -> test_names idc names q bs = Some ns -> NoDup (names ++ ns).
Proof.
  induction bs as [|b bs IH]; intros names q ns Hnd H; cbn [test_names] in H.
  - injection H as <-. rewrite app_nil_r. exact Hnd.
  - destruct (test_name idc names q b) as [[[n names'] q']|] eqn:Et; [|discriminate].
    destruct (test_names idc names' q' bs) as [ns'|] eqn:Er; [|discriminate]. injection H as <-.
    destruct (test_name_fresh _ _ _ _ _ _ _ Et) as [Hfresh ->].
    specialize (IH (names ++ [n]) q' ns').
    rewrite <- app_assoc in IH. apply IH; [|exact Er].
    apply NoDup_app_intro; [exact Hnd|constructor; [intros []|constructor]|].
    intros y Hy [<-|[]]. apply mem_str_In in Hy. congruence.
Qed.

Lemma qualify_None_inv fuel base names : forall q, qualify fuel base names q = None ->
  forall i, (i < fuel)%nat -> In (base ++ dec_of_Z (q + 1 + Z.of_nat i)) names.
Proof.
  induction fuel as [|f IH]; intros q H i Hi; [lia|]. cbn [qualify] in H.
  destruct (mem_str (base ++ dec_of_Z (q + 1)) names) eqn:E; [|discriminate].
  destruct i as [|i].
  - apply mem_str_In. replace (q + 1 + Z.of_nat 0) with (q + 1) by lia. exact E.
  - specialize (IH (q + 1) H i ltac:(lia)). replace (q + 1 + Z.of_nat (S i)) with (q + 1 + 1 + Z.of_nat i) by lia. exact IH.
Qed.

(* the candidates base1, base2, ... are distinct, so len(names)+1 of them cannot all be taken *)
Lemma qualify_total base names q : 0 <= q -> exists n q', qualify (S (length names)) base names q = Some (n, q') /\ q <= q'.
Proof.
  intro Hq. destruct (qualify (S (length names)) base names q) as [[n q']|] eqn:E.
  - exists n, q'. split; [reflexivity|exact (proj2 (qualify_Some_inv _ _ _ _ _ _ E))].
  - exfalso. pose proof (qualify_None_inv _ _ _ _ E) as Hall.
    set (cands := map (fun i => base ++ dec_of_Z (q + 1 + Z.of_nat i)) (seq 0 (S (length names)))).
    assert (Hnd : NoDup cands).
    { apply NoDup_map_in; [|apply seq_NoDup].
      intros i j _ _ Hij. apply app_inv_head in Hij.
      assert (q + 1 + Z.of_nat i = q + 1 + Z.of_nat j) by (apply dec_of_Z_inj; [lia|lia|exact Hij]). lia. }
    assert (Hincl : incl cands names).
    { intros c Hc. apply in_map_iff in Hc as [i [<- Hi]]. apply in_seq in Hi. apply Hall. lia. }
    pose proof (NoDup_incl_length Hnd Hincl) as Hlen. unfold cands in Hlen. rewrite map_length, seq_length in Hlen.
    exact (Nat.nle_succ_diag_l _ Hlen).
Qed.

(* TestGenerator.test_name always terminates with a name: at most len(names) re-qualifications are needed *)
Theorem test_name_total idc names q b : 0 <= q ->
  exists n names' q', test_name idc names q b = Some (n, names', q') /\ q <= q'.
Proof.
  intro Hq. unfold test_name. destruct (mem_str (sanitize idc b) names).
  - destruct (qualify_total (sanitize idc b) names q Hq) as (n & q' & -> & Hle). exists n, (names ++ [n]), q'. split; [reflexivity|exact Hle].
  - exists (sanitize idc b), (names ++ [sanitize idc b]), q. split; [reflexivity|lia].
Qed.

Theorem test_names_total idc bs : forall names q, 0 <= q -> exists ns, test_names idc names q bs = Some ns /\ length ns = length bs.
Proof.
  induction bs as [|b bs IH]; intros names q Hq; cbn [test_names]; [exists []; split; reflexivity|].
  destruct (test_name_total idc names q b Hq) as (n & names' & q' & -> & Hle).
  destruct (IH names' q' ltac:(lia)) as (ns & -> & Hl). exists (n :: ns). split; [reflexivity|cbn; lia].
Qed.

Lemma passes_false r : r_verdict r <> Pass -> passes r = false.
Proof. unfold passes. destruct (r_verdict r); [congruence|reflexivity|reflexivity]. Qed.

Lemma file_check_refl subs f c : snd f = Some c -> file_check subs f f = true.
Proof.
  intro H. unfold file_check. rewrite H. destruct (snd (fst f)).
  - unfold passes. rewrite file_vs_copy_passes_proof. reflexivity.
  - rewrite check_binary_refl. reflexivity.
Qed.

Lemma find_file_self fs : NoDup (map (fun f : str * bool * option str => fst (fst f)) fs) ->
  forall f, In f fs -> find_file (fst (fst f)) fs = Some f.
Proof.
  induction fs as [|g fs IH]; intros Hnd f Hin; [destruct Hin|]. inversion Hnd; subst.
  cbn [find_file]. destruct Hin as [->|Hin]; [rewrite str_eqb_refl; reflexivity|].
  destruct (str_eqb (fst (fst g)) (fst (fst f))) eqn:E; [|apply IH; assumption].
  apply str_eqb_eq in E. exfalso. apply H1. rewrite E. apply in_map_iff. exists f. split; [reflexivity|exact Hin].
Qed.

(* when the streams and files are as before, the exit status check is the only one that can fail *)
Lemma only_exit_can_fail cs ce subs ref new :
  out_stdout new = out_stdout ref -> out_stderr new = out_stderr ref -> out_files new = out_files ref ->
  NoDup (map (fun f : str * bool * option str => fst (fst f)) (out_files ref)) ->
  (forall f, In f (out_files ref) -> snd f <> None) ->
  forall c ok, In (c, ok) (run_generated cs ce subs ref new) ->
               ok = true \/ (c = CExit /\ ok = Z.eqb (out_exit new) (out_exit ref)).
Proof.
  intros Ho He Hf Hnd Hpresent c ok Hin. unfold run_generated in Hin.
  repeat (apply in_app_or in Hin as [Hin|Hin]).
  - destruct Hin as [E|[E|[]]]; injection E as <- <-; [left; reflexivity|right; split; reflexivity].
  - left. destruct cs; cbn [In] in Hin; [|contradiction]. destruct Hin as [E|[]]. injection E as _ <-.
    rewrite Ho. unfold passes. rewrite string_vs_own_file_passes_proof. reflexivity.
  - left. destruct ce; cbn [In] in Hin; [|contradiction]. destruct Hin as [E|[]]. injection E as _ <-.
    rewrite He. unfold passes. rewrite string_vs_own_file_passes_proof. reflexivity.
  - left. apply in_map_iff in Hin as [f [E Hf']]. injection E as _ <-.
    rewrite Hf, (find_file_self _ Hnd f Hf'). destruct (snd f) as [c0|] eqn:Ec; [|destruct (Hpresent f Hf' Ec)].
    eapply file_check_refl. exact Ec.
Qed.

Theorem changed_exit_fails_proof cs ce subs ref new :
  out_exit new <> out_exit ref -> In (CExit, false) (run_generated cs ce subs ref new).
Proof.
  intro H. unfold run_generated. apply in_or_app. left. right. left. f_equal. apply Z.eqb_neq. exact H.
Qed.

(* a differing pair of lines that no ignore-substring excuses (substrings are looked for in the reference line) *)
Definition line_unexcused (subs : list str) (a e : str) : bool :=
  negb (str_eqb a e) && negb (existsb (fun s => contains s e) subs).

Definition text_changed (subs : list str) (A E : list str) : Prop :=
  length (drop_last_empty A) <> length (drop_last_empty E) \/
  existsb (fun p => line_unexcused subs (fst p) (snd p)) (combine (drop_last_empty A) (drop_last_empty E)) = true.

(* the generated options have no patterns, removals, stripping or permutation cases: the comparison passes only
   when the line counts agree and no pair of lines is unexcused *)
Theorem changed_text_fails_proof subs A E :
  text_changed subs A E -> r_verdict (check_strings (gen_opts subs) [] A E) <> Pass.
Proof.
  intros Hc Hv. apply strict_pass_iff in Hv as [Hl HU]; [|apply no_divergence_no_patterns|]; try reflexivity.
  unfold U in HU. rewrite !prep_no_removals in * by reflexivity.
  destruct Hc as [Hc|Hc]; [exact (Hc Hl)|]. apply existsb_exists in Hc as [p [Hin Hp]].
  apply filter_nil_iff with (x := p) in HU; [|exact Hin].
  rewrite unexcused_no_patterns in HU by reflexivity. unfold line_unexcused in Hp. cbn [gen_opts o_isub] in HU. congruence.
Qed.

Definition s_stdout : str := [115;116;100;111;117;116].
Definition s_stderr : str := [115;116;100;101;114;114].

Theorem changed_stdout_fails_proof ce subs ref new :
  text_changed (subs s_stdout) (splitlines (out_stdout new)) (splitlines (univ_nl (out_stdout ref))) ->
  In (CStdout, false) (run_generated true ce subs ref new).
Proof.
  intro H. unfold run_generated. apply in_or_app. right. apply in_or_app. left. left. f_equal.
  apply passes_false, changed_text_fails_proof, H.
Qed.

Theorem changed_stderr_fails_proof cs subs ref new :
  text_changed (subs s_stderr) (splitlines (out_stderr new)) (splitlines (univ_nl (out_stderr ref))) ->
  In (CStderr, false) (run_generated cs true subs ref new).
Proof.
  intro H. unfold run_generated. apply in_or_app. right. apply in_or_app. right. apply in_or_app. left. left. f_equal.
  apply passes_false, changed_text_fails_proof, H.
Qed.

Theorem changed_file_fails_proof cs ce subs ref new f :
  In f (out_files ref) ->
  (match find_file (fst (fst f)) (out_files new) with
   | None => True
   | Some g =>
     match snd f, snd g with
     | Some rc, Some nc =>
       if snd (fst f) then text_changed (subs (fst (fst f))) (splitlines (univ_nl nc)) (splitlines (univ_nl rc))
       else nc <> rc
     | _, _ => True
     end
   end) ->
  In (CFile (fst (fst f)), false) (run_generated cs ce subs ref new).
Proof.
  intros Hf Hch. unfold run_generated. apply in_or_app. right. apply in_or_app. right. apply in_or_app. right.
  apply in_map_iff. exists f. split; [|exact Hf]. f_equal.
  destruct (find_file (fst (fst f)) (out_files new)) as [g|]; [|reflexivity].
  unfold file_check. destruct (snd f) as [rc|]; [|reflexivity]. destruct (snd g) as [nc|]; [|reflexivity].
  destruct (snd (fst f)).
  - apply passes_false, changed_text_fails_proof, Hch.
  - unfold check_binary. destruct (str_eqb rc nc) eqn:E; [|reflexivity]. apply str_eqb_eq in E. congruence.
Qed.

Lemma is_prefix_same_length p : forall q, is_prefix p q = true -> length q = length p -> q = p.
Proof.
  induction p as [|a p IH]; intros [|b q] Hp Hl; try discriminate; [reflexivity|].
  cbn [is_prefix] in Hp. destruct (str_eqb a b) eqn:Hab; [|discriminate]. apply str_eqb_eq in Hab. subst b.
  f_equal. apply IH; [exact Hp|]. injection Hl as Hl. exact Hl.
Qed.
