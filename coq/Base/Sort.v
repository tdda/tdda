(* Code-point order on strings (= Python's str ordering) and insertion sort. *)
From Coq Require Import ZArith List Lia.
From Tdda Require Import Base.Sexp Base.Str.
Import ListNotations.
Open Scope Z_scope.

Fixpoint str_leb (a b : str) : bool :=
  match a, b with
  | [], _ => true
  | _ :: _, [] => false
  | x :: a', y :: b' => if Z.ltb x y then true else if Z.ltb y x then false else str_leb a' b'
  end.

Definition str_ltb (a b : str) : bool := str_leb a b && negb (str_eqb a b).

Section Sort.
  Context {T : Type} (leb : T -> T -> bool).
  Fixpoint insert (x : T) (l : list T) : list T :=
    match l with
    | [] => [x]
    | y :: l' => if leb x y then x :: l else y :: insert x l'
    end.
  Fixpoint isort (l : list T) : list T :=
    match l with
    | [] => []
    | x :: l' => insert x (isort l')
    end.
End Sort.

Definition sort_strs (l : list str) : list str := isort str_leb l.

(* remove duplicates keeping first occurrence *)
Fixpoint dedup (l : list str) : list str :=
  match l with
  | [] => []
  | x :: l' => x :: filter (fun y => negb (str_eqb x y)) (dedup l')
  end.

Lemma str_leb_refl a : str_leb a a = true.
Proof. induction a as [|x a IH]; simpl; [reflexivity|]. rewrite Z.ltb_irrefl. exact IH. Qed.

Lemma str_leb_total a b : str_leb a b = true \/ str_leb b a = true.
Proof.
  revert b; induction a as [|x a IH]; intros [|y b]; simpl; auto.
  destruct (Z.ltb_spec x y), (Z.ltb_spec y x); auto.
Qed.

Lemma str_leb_antisym a b : str_leb a b = true -> str_leb b a = true -> a = b.
Proof.
  revert b; induction a as [|x a IH]; intros [|y b]; simpl; try discriminate; auto.
  destruct (Z.ltb_spec x y), (Z.ltb_spec y x); try discriminate; try lia.
  intros H1 H2. assert (x = y) by lia. subst. f_equal. auto.
Qed.

Lemma str_leb_trans a b c : str_leb a b = true -> str_leb b c = true -> str_leb a c = true.
Proof.
  revert b c; induction a as [|x a IH]; intros [|y b] [|z c]; cbn [str_leb]; try discriminate; try reflexivity.
  destruct (Z.ltb_spec x y) as [Hxy|Hxy].
  - intros _. destruct (Z.ltb_spec y z) as [Hyz|Hyz].
    + intros _. rewrite (proj2 (Z.ltb_lt x z)) by lia. reflexivity.
    + destruct (Z.ltb_spec z y); [discriminate|]. intros _. rewrite (proj2 (Z.ltb_lt x z)) by lia. reflexivity.
  - destruct (Z.ltb_spec y x); [discriminate|]. assert (x = y) by lia. subst y. intro H1.
    destruct (Z.ltb x z); [reflexivity|]. destruct (Z.ltb z x); [discriminate|]. apply IH. exact H1.
Qed.

Lemma insert_In {T} (leb : T -> T -> bool) x l y : In y (insert leb x l) <-> In y (x :: l).
Proof.
  induction l as [|z l IH]; cbn [insert]; [reflexivity|]. destruct (leb x z); [reflexivity|].
  cbn [In] in *. rewrite IH. split; intros [H|[H|H]]; auto.
Qed.

Lemma isort_In {T} (leb : T -> T -> bool) l : forall y, In y (isort leb l) <-> In y l.
Proof.
  induction l as [|x l IH]; intros y; cbn [isort]; [reflexivity|]. rewrite insert_In. cbn [In]. rewrite IH. reflexivity.
Qed.
