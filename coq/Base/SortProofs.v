(* Insertion sort: the result is a sorted permutation of the input, and for an order that is total, transitive
   and antisymmetric on the elements it is the only one - so it depends on the multiset of the input alone. *)
From Coq Require Import List Permutation Sorted.
From Tdda Require Import Base.Sort.
Import ListNotations.

Section Isort.
  Context {T : Type} (leb : T -> T -> bool).

  Lemma insert_perm x l : Permutation (x :: l) (insert leb x l).
  Proof.
    induction l as [|y l IH]; cbn [insert]; [reflexivity|].
    destruct (leb x y); [reflexivity|].
    eapply perm_trans; [apply perm_swap|]. apply perm_skip. exact IH.
  Qed.

  Lemma isort_perm l : Permutation l (isort leb l).
  Proof.
    induction l as [|x l IH]; cbn [isort]; [reflexivity|].
    eapply perm_trans; [apply perm_skip; exact IH|]. apply insert_perm.
  Qed.

  (* the order need only behave on the elements at hand *)
  Variable P : T -> Prop.
  Hypothesis leb_total : forall a b, P a -> P b -> leb a b = true \/ leb b a = true.
  Hypothesis leb_trans : forall a b c, P a -> P b -> P c -> leb a b = true -> leb b c = true -> leb a c = true.
  Hypothesis leb_antisym : forall a b, P a -> P b -> leb a b = true -> leb b a = true -> a = b.

  Let le a b := leb a b = true.

  Lemma insert_sorted x l : P x -> Forall P l -> StronglySorted le l -> StronglySorted le (insert leb x l).
  Proof.
    intros Hx Hl Hs. induction Hs as [|z l Hs IH Hz]; cbn [insert].
    - repeat constructor.
    - inversion Hl as [|? ? Pz Pl]. rewrite Forall_forall in Hz, Pl. destruct (leb x z) eqn:E.
      + constructor; [constructor; [exact Hs|apply Forall_forall; exact Hz]|].
        constructor; [exact E|]. apply Forall_forall. intros y Hy.
        exact (leb_trans x z y Hx Pz (Pl y Hy) E (Hz y Hy)).
      + constructor; [apply IH, Forall_forall, Pl|]. apply Forall_forall. intros y Hy.
        apply insert_In in Hy as [<-|Hy]; [|apply Hz, Hy].
        destruct (leb_total x z Hx Pz) as [E'|E']; [congruence|exact E'].
  Qed.

  Lemma isort_sorted l : Forall P l -> StronglySorted le (isort leb l).
  Proof.
    induction 1 as [|x l Hx Hl IH]; cbn [isort]; [constructor|].
    apply insert_sorted; [exact Hx| |exact IH]. exact (Permutation_Forall (isort_perm l) Hl).
  Qed.

  Lemma sorted_perm_eq l : forall l', Forall P l -> StronglySorted le l -> StronglySorted le l' ->
    Permutation l l' -> l = l'.
  Proof.
    induction l as [|a l IH]; intros [|b l'] HP Hs Hs' Hp.
    - reflexivity.
    - apply Permutation_nil in Hp. discriminate.
    - apply Permutation_sym, Permutation_nil in Hp. discriminate.
    - pose proof (Permutation_Forall Hp HP) as HP'.
      inversion HP as [|? ? Pa Pl]; inversion HP' as [|? ? Pb Pl']; inversion Hs as [|? ? Hsl Ha]; inversion Hs' as [|? ? Hsl' Hb]; subst.
      rewrite Forall_forall in Ha, Hb.
      assert (a = b) as <-.
      { destruct (Permutation_in a Hp (or_introl eq_refl)) as [E|Hin]; [symmetry; exact E|].
        destruct (Permutation_in b (Permutation_sym Hp) (or_introl eq_refl)) as [E|Hin']; [exact E|].
        apply leb_antisym; [exact Pa|exact Pb|apply Ha, Hin'|apply Hb, Hin]. }
      f_equal. apply IH; [exact Pl|exact Hsl|exact Hsl'|]. exact (Permutation_cons_inv Hp).
  Qed.

  Theorem isort_perm_eq a b : Permutation a b -> Forall P a -> isort leb a = isort leb b.
  Proof.
    intros Hp Ha. pose proof (Permutation_Forall Hp Ha) as Hb.
    apply sorted_perm_eq; [exact (Permutation_Forall (isort_perm a) Ha)|apply isort_sorted, Ha|apply isort_sorted, Hb|].
    eapply perm_trans; [apply Permutation_sym, isort_perm|]. eapply perm_trans; [exact Hp|apply isort_perm].
  Qed.
End Isort.

Lemma isort_length {T} (leb : T -> T -> bool) l : length (isort leb l) = length l.
Proof. symmetry. apply Permutation_length, isort_perm. Qed.

Lemma sort_strs_perm l : Permutation l (sort_strs l).
Proof. apply isort_perm. Qed.

Theorem sort_strs_eq_iff a b : sort_strs a = sort_strs b <-> Permutation a b.
Proof.
  split.
  - intro H. eapply perm_trans; [apply sort_strs_perm|]. rewrite H.
    apply Permutation_sym, sort_strs_perm.
  - intro Hp. apply (isort_perm_eq str_leb (fun _ => True)).
    + intros a0 b0 _ _. apply str_leb_total.
    + intros a0 b0 c0 _ _ _. apply str_leb_trans.
    + intros a0 b0 _ _. apply str_leb_antisym.
    + exact Hp.
    + apply Forall_forall. intros; exact I.
Qed.
