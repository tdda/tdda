(* Python-string operations over lists of code points. *)
From Coq Require Import ZArith List Bool Lia.
From Tdda Require Import Base.Sexp.
Import ListNotations.
Open Scope Z_scope.

Fixpoint str_eqb (a b : str) : bool :=
  match a, b with
  | [], [] => true
  | x :: a', y :: b' => Z.eqb x y && str_eqb a' b'
  | _, _ => false
  end.

Lemma str_eqb_eq a b : str_eqb a b = true <-> a = b.
Proof.
  revert b; induction a as [|x a IH]; intros [|y b]; simpl; split; intro H;
    try reflexivity; try discriminate.
  - apply andb_true_iff in H as [H1 H2]. apply Z.eqb_eq in H1.
    apply IH in H2. congruence.
  - inversion H; subst. rewrite Z.eqb_refl. apply IH. reflexivity.
Qed.

Lemma str_eqb_refl a : str_eqb a a = true.
Proof. apply str_eqb_eq; reflexivity. Qed.

Lemma str_eqb_neq a b : str_eqb a b = false <-> a <> b.
Proof. rewrite <- str_eqb_eq. symmetry. apply not_true_iff_false. Qed.

Lemma str_eqb_sym a b : str_eqb a b = str_eqb b a.
Proof. apply eq_true_iff_eq. rewrite !str_eqb_eq. split; intro H; symmetry; exact H. Qed.

(* s.startswith(p) *)
Fixpoint startswith (p s : str) : bool :=
  match p, s with
  | [], _ => true
  | x :: p', y :: s' => Z.eqb x y && startswith p' s'
  | _ :: _, [] => false
  end.

Definition endswith (p s : str) : bool := startswith (rev p) (rev s).

(* x in list (strings) *)
Fixpoint mem_str (x : str) (l : list str) : bool :=
  match l with
  | [] => false
  | y :: l' => str_eqb x y || mem_str x l'
  end.

Lemma mem_str_In x l : mem_str x l = true <-> In x l.
Proof.
  induction l as [|y l IH]; simpl; [split; [discriminate|intros []]|]. split.
  - intro H. apply orb_true_iff in H as [H|H]; [left; symmetry; apply str_eqb_eq, H|right; apply IH, H].
  - intros [<-|H]; apply orb_true_iff; [left; apply str_eqb_refl|right; apply IH, H].
Qed.

Lemma mem_str_existsb f l : mem_str f l = existsb (str_eqb f) l.
Proof. induction l as [|y l IH]; simpl; congruence. Qed.

(* l.index(x), as an option *)
Fixpoint index_str (x : str) (l : list str) : option nat :=
  match l with
  | [] => None
  | y :: l' => if str_eqb x y then Some O
               else match index_str x l' with
                    | Some n => Some (S n)
                    | None => None
                    end
  end.

(* s.replace(c, '') for a single character c *)
Definition remove_char (c : Z) (s : str) : str :=
  filter (fun x => negb (Z.eqb x c)) s.

(* s.split(c) for a single-character separator: never returns [] *)
Fixpoint split_char_aux (c : Z) (s : str) (cur : str) : list str :=
  match s with
  | [] => [rev cur]
  | x :: s' => if Z.eqb x c then rev cur :: split_char_aux c s' []
               else split_char_aux c s' (x :: cur)
  end.
Definition split_char (c : Z) (s : str) : list str := split_char_aux c s [].

(* sep.join(parts) *)
Fixpoint join (sep : str) (parts : list str) : str :=
  match parts with
  | [] => []
  | [p] => p
  | p :: rest => p ++ sep ++ join sep rest
  end.

(* needle in hay *)
Fixpoint contains (needle hay : str) : bool :=
  startswith needle hay ||
  match hay with
  | [] => false
  | _ :: hay' => contains needle hay'
  end.

(* hay.find(needle), with None for -1 *)
Fixpoint find (needle hay : str) : option nat :=
  if startswith needle hay then Some O else
  match hay with
  | [] => None
  | _ :: hay' => match find needle hay' with Some n => Some (S n) | None => None end
  end.

(* Python's s.replace(old, new) for non-empty old: left to right, non-overlapping.
   skip = number of characters of the current occurrence still to be dropped. *)
Fixpoint replace_aux (old new : str) (skip : nat) (s : str) : str :=
  match s with
  | [] => []
  | x :: s' =>
    match skip with
    | S k => replace_aux old new k s'
    | O => if startswith old s then new ++ replace_aux old new (length old - 1) s'
           else x :: replace_aux old new O s'
    end
  end.
Definition replace (old new s : str) : str :=
  match old with
  | [] => s   (* callers never pass an empty pattern; Python would interleave *)
  | _ => replace_aux old new O s
  end.

Lemma startswith_app p s : startswith p (p ++ s) = true.
Proof. induction p as [|x p IH]; simpl; [reflexivity|]. rewrite Z.eqb_refl; exact IH. Qed.

Lemma startswith_spec p s : startswith p s = true <-> exists t, s = p ++ t.
Proof.
  revert s; induction p as [|x p IH]; intros s; simpl.
  - split; [intros _; exists s; reflexivity | reflexivity].
  - destruct s as [|y s]; [split; [discriminate|intros [t Ht]; discriminate]|].
    split.
    + intro H. apply andb_true_iff in H as [H1 H2]. apply Z.eqb_eq in H1. apply IH in H2 as [t ->]. subst. exists t. reflexivity.
    + intros [t Ht]. injection Ht as -> ->. rewrite Z.eqb_refl. apply startswith_app.
Qed.

Lemma startswith_length p s : startswith p s = true -> (length p <= length s)%nat.
Proof.
  revert s; induction p as [|x p IH]; intros [|y s]; simpl; intro H; try lia.
  apply andb_true_iff in H as [_ H]. apply IH in H. lia.
Qed.

(* a character that does not occur in the pattern blocks every match across it *)
Lemma startswith_blocked old a c b :
  existsb (Z.eqb c) old = false -> startswith old (a ++ c :: b) = startswith old a.
Proof.
  revert a; induction old as [|o old IH]; intros a Hc; [reflexivity|].
  cbn [existsb] in Hc. apply orb_false_iff in Hc as [Hco Hc].
  destruct a as [|x a]; cbn [app startswith].
  - rewrite Z.eqb_sym, Hco. reflexivity.
  - rewrite IH by exact Hc. reflexivity.
Qed.

Lemma replace_aux_blocked old new c b : existsb (Z.eqb c) old = false -> old <> [] ->
  forall a k, (k <= length a)%nat ->
  replace_aux old new k (a ++ c :: b) = replace_aux old new k a ++ c :: replace_aux old new O b.
Proof.
  intros Hc Hne. induction a as [|x a IH]; intros k Hk.
  - assert (k = O) by (simpl in Hk; lia). subst k. cbn [app replace_aux].
    rewrite (startswith_blocked old [] c b Hc : startswith old (c :: b) = _).
    destruct old as [|o old]; [congruence|]. reflexivity.
  - destruct k as [|k].
    + cbn [app replace_aux].
      rewrite (startswith_blocked old (x :: a) c b Hc : startswith old (x :: a ++ c :: b) = _).
      destruct (startswith old (x :: a)) eqn:E.
      * apply startswith_length in E. simpl in E.
        rewrite IH by lia. rewrite app_assoc. reflexivity.
      * rewrite IH by lia. reflexivity.
    + apply IH. simpl in Hk. lia.
Qed.

Lemma replace_blocked old new c a b : existsb (Z.eqb c) old = false ->
  replace old new (a ++ c :: b) = replace old new a ++ c :: replace old new b.
Proof.
  intro Hc. destruct old as [|o old]; [reflexivity|].
  unfold replace. apply replace_aux_blocked; [exact Hc|discriminate|lia].
Qed.
