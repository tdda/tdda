(* Facts about lists (filter, existsb, map, nth, combine, skipn, NoDup, Forall2, folds, sums, the partial map omap) that the
   standard library lacks. *)
From Coq Require Import ZArith List Bool Lia Permutation.
Import ListNotations.
Open Scope Z_scope.

Lemma filter_length_split {T} (f : T -> bool) l :
  (length (filter f l) + length (filter (fun x => negb (f x)) l) = length l)%nat.
Proof. induction l as [|y l IH]; simpl; [reflexivity|]. destruct (f y); simpl; lia. Qed.

Lemma filter_length_le {T} (f : T -> bool) l : (length (filter f l) <= length l)%nat.
Proof. pose proof (filter_length_split f l). lia. Qed.

Lemma filter_length_mono {T} (f g : T -> bool) l : (forall x, In x l -> g x = true -> f x = true) ->
  (length (filter g l) <= length (filter f l))%nat.
Proof.
  induction l as [|x l IH]; intro H; cbn [filter]; [lia|].
  specialize (IH (fun y Hy => H y (or_intror Hy))). pose proof (H x (or_introl eq_refl)) as Hx.
  destruct (g x); [rewrite (Hx eq_refl); cbn [length]; lia|]. destruct (f x); cbn [length]; lia.
Qed.

Lemma filter_length_strict {T} (f g : T -> bool) l x : (forall y, In y l -> g y = true -> f y = true) ->
  In x l -> f x = true -> g x = false -> (length (filter g l) < length (filter f l))%nat.
Proof.
  induction l as [|y l IH]; intros H Hin Hf Hg; [destruct Hin|]. cbn [filter].
  pose proof (filter_length_mono f g l (fun z Hz => H z (or_intror Hz))) as Hm.
  destruct Hin as [->|Hin].
  - rewrite Hf, Hg. cbn [length]. lia.
  - specialize (IH (fun z Hz => H z (or_intror Hz)) Hin Hf Hg). pose proof (H y (or_introl eq_refl)) as Hy.
    destruct (g y); [rewrite (Hy eq_refl); cbn [length]; lia|]. destruct (f y); cbn [length]; lia.
Qed.

Lemma filter_all_true {T} (f : T -> bool) l : (forall x, In x l -> f x = true) -> filter f l = l.
Proof.
  induction l as [|y l IH]; intro H; simpl; [reflexivity|].
  rewrite (H y (or_introl eq_refl)), IH; [reflexivity|]. intros x Hx. apply H. right. exact Hx.
Qed.

Lemma count_zero_iff {T} (p : T -> bool) l : length (filter p l) = O <-> existsb p l = false.
Proof.
  induction l as [|y l IH]; simpl; [split; reflexivity|].
  destruct (p y); simpl; [split; discriminate|exact IH].
Qed.

Lemma existsb_false_iff {T} (f : T -> bool) l : existsb f l = false <-> forall x, In x l -> f x = false.
Proof.
  rewrite <- not_true_iff_false, existsb_exists. split.
  - intros H x Hx. apply not_true_iff_false. intro E. apply H. exists x. split; assumption.
  - intros H [x [Hx E]]. rewrite (H x Hx) in E. discriminate.
Qed.

Lemma filter_negb_absent {T} (p : T -> bool) l : existsb p l = false -> filter (fun a => negb (p a)) l = l.
Proof. intro H. apply filter_all_true. intros x Hx. rewrite (proj1 (existsb_false_iff _ _) H x Hx). reflexivity. Qed.

Lemma filter_nil_iff {T} (f : T -> bool) l : filter f l = [] <-> forall x, In x l -> f x = false.
Proof. rewrite <- length_zero_iff_nil, count_zero_iff. apply existsb_false_iff. Qed.

Lemma filter_length_eq_all {T} (f : T -> bool) l :
  length (filter f l) = length l -> forall x, In x l -> f x = true.
Proof.
  intros H x Hx. pose proof (filter_length_split f l). apply negb_false_iff.
  apply (proj1 (filter_nil_iff (fun x => negb (f x)) l)); [apply length_zero_iff_nil; lia|exact Hx].
Qed.

Lemma filter_filter {T} (f g : T -> bool) l :
  filter f (filter g l) = filter (fun x => g x && f x) l.
Proof.
  induction l as [|y l IH]; simpl; [reflexivity|].
  destruct (g y); simpl; [destruct (f y); simpl; [f_equal|]; exact IH | exact IH].
Qed.

Lemma filter_filter_length_le {T} (p g : T -> bool) l :
  (length (filter p (filter g l)) <= length (filter p l))%nat.
Proof. rewrite filter_filter. apply filter_length_mono. intros x _ H. apply andb_true_iff in H. apply H. Qed.

Lemma filter_map_comm {A B} (g : A -> B) (f : B -> bool) l :
  filter f (map g l) = map g (filter (fun x => f (g x)) l).
Proof. induction l as [|x l IH]; simpl; [reflexivity|]. rewrite IH. destruct (f (g x)); reflexivity. Qed.

Lemma filter_perm {T} (f : T -> bool) l l' : Permutation l l' -> Permutation (filter f l) (filter f l').
Proof.
  induction 1 as [|x l l' _ IH|x y l|l l' l'' _ IH1 _ IH2]; cbn [filter].
  - constructor.
  - destruct (f x); [apply perm_skip|]; exact IH.
  - destruct (f x), (f y); try apply perm_swap; apply Permutation_refl.
  - eapply perm_trans; eassumption.
Qed.

Lemma existsb_ext_in {A} (f g : A -> bool) l : (forall a, In a l -> f a = g a) -> existsb f l = existsb g l.
Proof.
  induction l as [|a l IH]; intro H; [reflexivity|]. cbn [existsb]. rewrite (H a (or_introl eq_refl)). f_equal.
  apply IH. intros x Hx. apply H. right. exact Hx.
Qed.

Lemma existsb_filter {T} (f g : T -> bool) l :
  existsb f (filter g l) = existsb (fun x => g x && f x) l.
Proof.
  induction l as [|y l IH]; simpl; [reflexivity|].
  destruct (g y); simpl; rewrite IH; reflexivity.
Qed.

Lemma existsb_map {A B} (f : A -> B) (g : B -> bool) l :
  existsb g (map f l) = existsb (fun x => g (f x)) l.
Proof. induction l as [|y l IH]; simpl; [reflexivity|]. rewrite IH. reflexivity. Qed.

Lemma existsb_flat_map {A B} (f : B -> bool) (g : A -> list B) l :
  existsb f (flat_map g l) = existsb (fun a => existsb f (g a)) l.
Proof. induction l as [|a l IH]; [reflexivity|]. cbn [flat_map existsb]. rewrite existsb_app, IH. reflexivity. Qed.

Lemma existsb_same_elements {T} (f : T -> bool) l l' : (forall x, In x l <-> In x l') -> existsb f l = existsb f l'.
Proof.
  intro H. apply eq_true_iff_eq. rewrite !existsb_exists.
  split; intros [x [Hx Hf]]; exists x; (split; [apply H, Hx|exact Hf]).
Qed.

Lemma existsb_nodup (f : nat -> bool) l : existsb f (nodup Nat.eq_dec l) = existsb f l.
Proof. apply existsb_same_elements. intro x. apply nodup_In. Qed.

Lemma existsb_filter_keep {T} (p g : T -> bool) l :
  (forall x, p x = true -> g x = true) -> existsb p (filter g l) = existsb p l.
Proof.
  intro H. rewrite existsb_filter. apply existsb_ext_in. intros x _.
  destruct (p x) eqn:E; [rewrite (H x E); reflexivity|apply andb_false_r].
Qed.

Lemma existsb_filter_false {T} (p g : T -> bool) l :
  existsb p l = false -> existsb p (filter g l) = false.
Proof.
  intro H. apply existsb_false_iff. intros x Hx. apply filter_In in Hx as [Hx _].
  exact (proj1 (existsb_false_iff p l) H x Hx).
Qed.

Lemma existsb_perm {T} (f : T -> bool) l l' : Permutation l l' -> existsb f l = existsb f l'.
Proof.
  intro Hp. apply existsb_same_elements. intro x.
  split; apply Permutation_in; [exact Hp|apply Permutation_sym, Hp].
Qed.

Lemma existsb_eqb_In x l : existsb (Nat.eqb x) l = true <-> In x l.
Proof.
  rewrite existsb_exists. split.
  - intros [y [Hy He]]. apply Nat.eqb_eq in He. subst. exact Hy.
  - intro H. exists x. split; [exact H|apply Nat.eqb_refl].
Qed.

Lemma forallb_ext {T} (p q : T -> bool) l : (forall x, p x = q x) -> forallb p l = forallb q l.
Proof. intro H. induction l as [|x l IH]; cbn [forallb]; [reflexivity|]. rewrite H, IH. reflexivity. Qed.

Lemma map_nth_seq {T} (l : list T) d : map (fun k => nth k l d) (seq 0 (length l)) = l.
Proof.
  induction l as [|x l IH]; [reflexivity|]. cbn [length seq map nth]. f_equal.
  rewrite <- seq_shift, map_map. exact IH.
Qed.

Lemma nth_map_seq {T} (f : nat -> T) n p d : (p < n)%nat -> nth p (map f (seq 0 n)) d = f p.
Proof.
  intro H. rewrite (nth_indep _ d (f O)) by (rewrite map_length, seq_length; exact H).
  rewrite map_nth, seq_nth by exact H. reflexivity.
Qed.

Lemma nth_map_const {A B} (d : B) (l : list A) i : nth i (map (fun _ => d) l) d = d.
Proof. revert i; induction l as [|a l IH]; intros [|i]; cbn [map nth]; try reflexivity. apply IH. Qed.

Lemma nth_error_map_Some {A B} (f : A -> B) l i y :
  nth_error (map f l) i = Some y <-> exists x, nth_error l i = Some x /\ f x = y.
Proof.
  rewrite nth_error_map. destruct (nth_error l i) as [x|]; simpl; split.
  - intros [= <-]. eauto.
  - intros (x' & [= <-] & <-). reflexivity.
  - discriminate.
  - intros (x' & [=] & _).
Qed.

Lemma in_map_forall {A B} (f : A -> B) (Q : B -> Prop) l :
  (forall y, In y (map f l) -> Q y) <-> (forall x, In x l -> Q (f x)).
Proof. rewrite <- (Forall_forall Q), <- (Forall_forall (fun x => Q (f x))). apply Forall_map. Qed.

Lemma flat_map_nil_iff {A B} (f : A -> list B) l : flat_map f l = [] <-> forall x, In x l -> f x = [].
Proof. rewrite flat_map_concat_map, concat_nil_Forall, Forall_map, Forall_forall. reflexivity. Qed.

Lemma flat_map_ext_in {A B} (f g : A -> list B) l : (forall a, In a l -> f a = g a) -> flat_map f l = flat_map g l.
Proof. intro H. rewrite !flat_map_concat_map. f_equal. apply map_ext_in. exact H. Qed.

Lemma map_fst_combine {A B} (l1 : list A) : forall (l2 : list B), length l1 = length l2 -> map fst (combine l1 l2) = l1.
Proof. induction l1 as [|x l1 IH]; intros [|y l2] H; try discriminate; cbn; [reflexivity|]. f_equal. apply IH. cbn in H. lia. Qed.

Lemma in_combine_exists {A B} (l1 : list A) (l2 : list B) x : length l1 = length l2 -> In x l1 -> exists y, In (x, y) (combine l1 l2).
Proof.
  intros Hlen Hin. rewrite <- (map_fst_combine l1 l2 Hlen) in Hin.
  apply in_map_iff in Hin as [[x' y] [<- Hin]]. exists y. exact Hin.
Qed.

Lemma in_combine_seq {T} (l : list T) d i v :
  In (i, v) (combine (seq 0 (length l)) l) <-> (i < length l)%nat /\ v = nth i l d.
Proof.
  assert (Hnth : forall k, (k < length l)%nat -> nth k (combine (seq 0 (length l)) l) (O, d) = (k, nth k l d)).
  { intros k Hk. rewrite combine_nth by apply seq_length. rewrite seq_nth by exact Hk. reflexivity. }
  assert (Hlen : length (combine (seq 0 (length l)) l) = length l) by (rewrite combine_length, seq_length; lia).
  split.
  - intro H. apply (In_nth _ _ (O, d)) in H as [k [Hk E]]. rewrite Hlen in Hk. rewrite Hnth in E by exact Hk.
    injection E as <- <-. split; [exact Hk|reflexivity].
  - intros [Hi ->]. rewrite <- Hnth by exact Hi. apply nth_In. rewrite Hlen. exact Hi.
Qed.

Lemma skipn_add {A} (a b : nat) (l : list A) : skipn (a + b) l = skipn b (skipn a l).
Proof.
  revert l. induction a as [|a IH]; intro l; [reflexivity|]. destruct l as [|x l]; cbn [Nat.add skipn].
  - destruct b; reflexivity.
  - apply IH.
Qed.

Lemma skipn_app_exact {T} (l1 l2 : list T) : skipn (length l1) (l1 ++ l2) = l2.
Proof. rewrite skipn_app, skipn_all, Nat.sub_diag. reflexivity. Qed.

Lemma NoDup_snoc {T} (l : list T) x : NoDup l -> ~ In x l -> NoDup (l ++ [x]).
Proof. intros Hl Hx. apply (Permutation_NoDup (Permutation_cons_append l x)). constructor; assumption. Qed.

Lemma NoDup_app_intro {T} (a b : list T) :
  NoDup a -> NoDup b -> (forall x, In x a -> In x b -> False) -> NoDup (a ++ b).
Proof.
  induction a as [|x a IH]; simpl; intros Ha Hb Hd; [exact Hb|].
  inversion Ha; subst. constructor.
  - rewrite in_app_iff. intros [H|H]; [contradiction|]. apply (Hd x); auto.
  - apply IH; auto. intros y Hy1 Hy2. apply (Hd y); auto.
Qed.

Lemma NoDup_map_in {A B} (f : A -> B) l :
  (forall x y, In x l -> In y l -> f x = f y -> x = y) -> NoDup l -> NoDup (map f l).
Proof.
  induction l as [|a l IH]; intros Hinj Hnd; cbn [map]; [constructor|]. inversion Hnd; subst. constructor.
  - intro Hin. apply in_map_iff in Hin as [y [Hy Hin]].
    assert (y = a) by (apply Hinj; [right; exact Hin|left; reflexivity|exact Hy]). subst. contradiction.
  - apply IH; [|assumption]. intros x y Hx Hy. apply Hinj; right; assumption.
Qed.

Lemma NoDup_map_inj {A B} (f : A -> B) l x y :
  NoDup (map f l) -> In x l -> In y l -> f x = f y -> x = y.
Proof.
  induction l as [|a l IH]; cbn [map]; intros Hnd Hx Hy E; [destruct Hx|]. inversion Hnd; subst.
  destruct Hx as [<-|Hx], Hy as [<-|Hy]; [reflexivity| | |apply IH; assumption]; exfalso; apply H1.
  - rewrite E. apply in_map. exact Hy.
  - rewrite <- E. apply in_map. exact Hx.
Qed.

Lemma NoDup_map_filter {T U} (g : T -> U) (f : T -> bool) l : NoDup (map g l) -> NoDup (map g (filter f l)).
Proof.
  intro H. apply NoDup_map_in; [|apply NoDup_filter, (NoDup_map_inv g l H)].
  intros x y Hx Hy. apply filter_In in Hx as [Hx _], Hy as [Hy _]. exact (NoDup_map_inj g l x y H Hx Hy).
Qed.

Lemma Forall_mp {A} (P Q : A -> Prop) l : Forall (fun x => P x -> Q x) l -> Forall P l -> Forall Q l.
Proof. induction 1 as [|x l Hx _ IH]; intro H; [constructor|]. apply Forall_cons_iff in H as [H1 H2]. auto. Qed.

Lemma Forall2_impl {A B} (R1 R2 : A -> B -> Prop) l1 l2 :
  (forall a b, R1 a b -> R2 a b) -> Forall2 R1 l1 l2 -> Forall2 R2 l1 l2.
Proof. intros H F. induction F; constructor; auto. Qed.

Lemma Forall2_length {A B} (R : A -> B -> Prop) l1 l2 : Forall2 R l1 l2 -> length l1 = length l2.
Proof. induction 1; cbn; congruence. Qed.

Lemma Forall2_nth {A B} (R : A -> B -> Prop) l1 l2 da db i :
  Forall2 R l1 l2 -> (i < length l1)%nat -> R (nth i l1 da) (nth i l2 db).
Proof.
  intro H. revert i. induction H as [|a b l1 l2 Hab _ IH]; intros i Hi; cbn [length] in Hi; [lia|].
  destruct i; cbn [nth]; [exact Hab|apply IH; lia].
Qed.

Lemma Forall2_from_nth {A} (R : A -> A -> Prop) d : forall l l', length l = length l' ->
  (forall i, (i < length l)%nat -> R (nth i l d) (nth i l' d)) -> Forall2 R l l'.
Proof.
  induction l as [|x l IH]; intros [|y l'] Hlen H; try discriminate; constructor.
  - apply (H O). cbn. lia.
  - apply IH; [cbn in Hlen; lia|]. intros i Hi. apply (H (S i)). cbn. lia.
Qed.

Lemma fold_left_comm_perm_inv {A B} (f : A -> B -> A) (I : A -> Prop) :
  (forall a x, I a -> I (f a x)) ->
  (forall a x y, I a -> f (f a x) y = f (f a y) x) ->
  forall l l', Permutation l l' -> forall a, I a -> fold_left f l a = fold_left f l' a.
Proof.
  intros Hi Hc l l' Hp. induction Hp as [|x l l' _ IH|x y l|l l' l'' _ IH1 _ IH2]; intros a Ha; cbn [fold_left].
  - reflexivity.
  - apply IH, Hi, Ha.
  - rewrite Hc by exact Ha. reflexivity.
  - rewrite IH1 by exact Ha. apply IH2, Ha.
Qed.

Lemma fold_left_proj {A B C} (f : A -> B -> A) (g : C -> B -> C) (p : A -> C) :
  (forall a x, p (f a x) = g (p a) x) -> forall l a, p (fold_left f l a) = fold_left g l (p a).
Proof. intros H l. induction l as [|x l IH]; intro a; cbn [fold_left]; [reflexivity|]. rewrite IH, H. reflexivity. Qed.

Lemma fold_left_snoc_inv {A B} (inv : list B -> A -> Prop) (step : A -> B -> A) :
  (forall L a x, inv L a -> inv (L ++ [x]) (step a x)) ->
  forall L2 L1 a, inv L1 a -> inv (L1 ++ L2) (fold_left step L2 a).
Proof.
  intro Hstep. induction L2 as [|x L2 IH]; intros L1 a H; cbn [fold_left]; [rewrite app_nil_r; exact H|].
  replace (L1 ++ x :: L2) with ((L1 ++ [x]) ++ L2) by (rewrite <- app_assoc; reflexivity).
  apply IH, Hstep, H.
Qed.

Lemma fold_max_ge {A} (f : A -> nat) l x : In x l -> (f x <= fold_right (fun y m => Nat.max (f y) m) O l)%nat.
Proof. induction l as [|y l IH]; [intros []|]. intros [->|H]; cbn [fold_right]; [|specialize (IH H)]; lia. Qed.

Lemma sum_perm l l' : Permutation l l' -> fold_right Z.add 0 l = fold_right Z.add 0 l'.
Proof. induction 1; cbn [fold_right]; lia. Qed.

Lemma sum_snoc l x : fold_right Z.add 0 (l ++ [x]) = fold_right Z.add 0 l + x.
Proof. induction l as [|y l IH]; cbn; [|rewrite IH]; lia. Qed.

Lemma sum_le {T} (f g : T -> Z) l :
  (forall x, In x l -> f x <= g x) -> fold_right Z.add 0 (map f l) <= fold_right Z.add 0 (map g l).
Proof.
  induction l as [|a l IH]; intro H; cbn [map fold_right]; [lia|].
  pose proof (H a (or_introl eq_refl)). specialize (IH (fun y Hy => H y (or_intror Hy))). lia.
Qed.

Lemma sum_zero {T} (f : T -> Z) l : (forall x, In x l -> f x = 0) -> fold_right Z.add 0 (map f l) = 0.
Proof.
  induction l as [|a l IH]; intro H; cbn [map fold_right]; [reflexivity|].
  rewrite (H a (or_introl eq_refl)), IH; [reflexivity|]. intros y Hy. apply H. right. exact Hy.
Qed.

Lemma sum_nonpos_zero {T} (f : T -> Z) l :
  (forall y, In y l -> 0 <= f y) -> fold_right Z.add 0 (map f l) <= 0 -> forall x, In x l -> f x = 0.
Proof.
  induction l as [|a l IH]; intros H Hs; cbn [map fold_right] in Hs; [intros x []|].
  pose proof (H a (or_introl eq_refl)) as Ha.
  assert (Hl : forall x, In x l -> f x = 0) by (apply IH; [intros y Hy; apply H; right; exact Hy|lia]).
  rewrite (sum_zero f l Hl) in Hs. intros x [<-|Hx]; [lia|apply Hl, Hx].
Qed.

Lemma sum_zero_iff {T} (f : T -> Z) l : (forall x, In x l -> 0 <= f x) ->
  (fold_right Z.add 0 (map f l) = 0 <-> forall x, In x l -> f x = 0).
Proof. intro H. split; [intro E; apply sum_nonpos_zero; [exact H|lia]|apply sum_zero]. Qed.

Fixpoint omap {A B} (f : A -> option B) (l : list A) : list B :=
  match l with [] => [] | x :: l' => match f x with Some y => y :: omap f l' | None => omap f l' end end.

Lemma omap_app {A B} (f : A -> option B) l1 l2 : omap f (l1 ++ l2) = omap f l1 ++ omap f l2.
Proof. induction l1 as [|x l1 IH]; cbn [omap app]; [reflexivity|]. destruct (f x); cbn [app]; rewrite IH; reflexivity. Qed.

Lemma omap_perm {A B} (f : A -> option B) l l' : Permutation l l' -> Permutation (omap f l) (omap f l').
Proof.
  induction 1 as [|x l l' _ IH|x y l|l l' l'' _ IH1 _ IH2]; cbn [omap].
  - constructor.
  - destruct (f x); [apply perm_skip|]; exact IH.
  - destruct (f x), (f y); try apply perm_swap; apply Permutation_refl.
  - eapply perm_trans; eassumption.
Qed.

Lemma In_omap {A B} (f : A -> option B) l y : In y (omap f l) <-> exists x, In x l /\ f x = Some y.
Proof.
  induction l as [|x l IH]; cbn [omap]; [split; [intros []|intros [x [[] _]]]|].
  destruct (f x) as [z|] eqn:E; cbn [In]; split.
  - intros [<-|H]; [exists x; split; [left; reflexivity|exact E]|].
    apply IH in H as [x' [H1 H2]]. exists x'. split; [right; exact H1|exact H2].
  - intros [x' [[<-|H1] H2]]; [left; congruence|right; apply IH; exists x'; split; assumption].
  - intro H. apply IH in H as [x' [H1 H2]]. exists x'. split; [right; exact H1|exact H2].
  - intros [x' [[<-|H1] H2]]; [congruence|apply IH; exists x'; split; assumption].
Qed.

Lemma fold_left_omap {A B S} (f : S -> A -> S) (g : S -> B -> S) (h : A -> option B) :
  (forall st x, f st x = match h x with Some y => g st y | None => st end) ->
  forall l st, fold_left f l st = fold_left g (omap h l) st.
Proof.
  intro H. induction l as [|x l IH]; intro st; cbn [fold_left omap]; [reflexivity|].
  rewrite IH, H. destruct (h x); reflexivity.
Qed.
