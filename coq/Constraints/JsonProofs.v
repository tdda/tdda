(* C09, text level: what json.loads reads from what to_json wrote is the value that was written. *)
From Coq Require Import ZArith List Bool Lia.
From Tdda Require Import Base.ListFacts Base.Sexp Base.Str Constraints.Json.
Import ListNotations.
Open Scope Z_scope.

Lemma scan_plain c t : c <> 34 -> c <> 92 -> (0 <=? c) && (c <? 32) = false ->
  scan_str (c :: t) = cons_res c (scan_str t).
Proof.
  intros H1 H2 H3. cbn [scan_str]. apply Z.eqb_neq in H1, H2. rewrite H1, H2, H3. reflexivity.
Qed.

Lemma scan_esc e ch t : (e =? 117) = false -> unescape e = Some ch -> scan_str (92 :: e :: t) = cons_res ch (scan_str t).
Proof. intros H1 H2. cbn [scan_str Z.eqb Pos.eqb]. rewrite H1, H2. reflexivity. Qed.

Lemma scan_u a b c d u t : hex4 a b c d = Some u -> (55296 <=? u) && (u <=? 56319) = false ->
  scan_str (92 :: 117 :: a :: b :: c :: d :: t) = cons_res u (scan_str t).
Proof.
  intros H1 H2. cbn [scan_str Z.eqb Pos.eqb]. rewrite H1, H2. reflexivity.
Qed.

Lemma hexdigit_no_nl n : 0 <= n -> hexdigit n <> 10.
Proof. intro H. unfold hexdigit. destruct (n <? 10); lia. Qed.

Lemma hexval_hexdigit n : 0 <= n < 16 -> hexval (hexdigit n) = Some n.
Proof.
  intro H. unfold hexdigit, hexval. destruct (Z.ltb_spec n 10).
  - rewrite (proj2 (Z.leb_le 48 (48 + n))), (proj2 (Z.leb_le (48 + n) 57)) by lia. rewrite Z.add_simpl_l. reflexivity.
  - rewrite (proj2 (Z.leb_gt (87 + n) 57)), andb_false_r by lia.
    rewrite (proj2 (Z.leb_le 97 (87 + n))), (proj2 (Z.leb_le (87 + n) 102)) by lia. rewrite Z.add_simpl_l. reflexivity.
Qed.

(* the three shapes of ESCAPE_DCT's output *)
Inductive esc_spec (c : Z) : str -> Prop :=
| esc_short e : unescape e = Some c -> (e =? 117) = false -> (e =? 10) = false -> esc_spec c [92; e]
| esc_hex : 0 <= c < 32 -> esc_spec c [92; 117; 48; 48; hexdigit (c / 16); hexdigit (c mod 16)]
| esc_self : c <> 34 -> c <> 92 -> (0 <=? c) && (c <? 32) = false -> esc_spec c [c].

Lemma esc_char_spec c : esc_spec c (esc_char c).
Proof.
  unfold esc_char.
  destruct (Z.eqb_spec c 34) as [->|H34]; [apply (esc_short _ 34); reflexivity|].
  destruct (Z.eqb_spec c 92) as [->|H92]; [apply (esc_short _ 92); reflexivity|].
  destruct (Z.eqb_spec c 10) as [->|_]; [apply (esc_short _ 110); reflexivity|].
  destruct (Z.eqb_spec c 13) as [->|_]; [apply (esc_short _ 114); reflexivity|].
  destruct (Z.eqb_spec c 9) as [->|_]; [apply (esc_short _ 116); reflexivity|].
  destruct (Z.eqb_spec c 8) as [->|_]; [apply (esc_short _ 98); reflexivity|].
  destruct (Z.eqb_spec c 12) as [->|_]; [apply (esc_short _ 102); reflexivity|].
  destruct ((0 <=? c) && (c <? 32)) eqn:E; [|apply esc_self; assumption].
  apply esc_hex. apply andb_true_iff in E as [H0 H32]. split; [apply Z.leb_le, H0|apply Z.ltb_lt, H32].
Qed.

Lemma scan_esc_char c t : scan_str (esc_char c ++ t) = cons_res c (scan_str t).
Proof.
  destruct (esc_char_spec c) as [e Hu He _|Hc|H1 H2 H3]; cbn [app].
  - apply scan_esc; assumption.
  - apply scan_u.
    + unfold hex4. change (hexval 48) with (Some 0).
      rewrite (hexval_hexdigit (c / 16)), (hexval_hexdigit (c mod 16)).
      * f_equal. pose proof (Z.div_mod c 16). lia.
      * apply Z.mod_pos_bound. lia.
      * split; [apply Z.div_pos|apply Z.div_lt_upper_bound]; lia.
    + apply andb_false_iff. left. apply Z.leb_gt. lia.
  - apply scan_plain; assumption.
Qed.

Theorem scan_str_quote s : forall rest, scan_str (flat_map esc_char s ++ 34 :: rest) = Some (s, rest).
Proof.
  induction s as [|c s IH]; intro rest; [reflexivity|].
  cbn [flat_map]. rewrite <- app_assoc, scan_esc_char, IH. reflexivity.
Qed.

Lemma quote_app k s : quote k ++ s = 34 :: flat_map esc_char k ++ 34 :: s.
Proof. unfold quote. cbn [app]. rewrite <- app_assoc. reflexivity. Qed.

Lemma esc_char_no_nl c : ~ In 10 (esc_char c).
Proof.
  destruct (esc_char_spec c) as [e _ _ He|Hc|_ _ H]; cbn [In].
  - intros [E|[E|[]]]; [discriminate|]. rewrite E in He. discriminate.
  - intros [E|[E|[E|[E|[E|[E|[]]]]]]]; try discriminate; revert E; apply hexdigit_no_nl.
    + apply Z.div_pos; [apply Hc|reflexivity].
    + apply Z.mod_pos_bound. reflexivity.
  - intros [->|[]]. discriminate.
Qed.

Lemma quote_no_nl k : ~ In 10 (flat_map esc_char k).
Proof. intro H. apply in_flat_map in H as [c [_ Hc]]. exact (esc_char_no_nl c Hc). Qed.

(* what may follow a value in a printed text: nothing, a comma or a newline *)
Definition delim (rest : str) : Prop := match rest with [] => True | c :: _ => c = 44 \/ c = 10 end.

Definition num_ok (tok : str) : Prop :=
  scan_num tok = Some (tok, []) \/ tok = lit_NaN \/ tok = lit_Inf \/ tok = 45 :: lit_Inf.

Lemma delim_nondigit rest : delim rest -> match rest with [] => True | c :: _ => is_digit c = false /\ c <> 46 /\ c <> 101 /\ c <> 69 end.
Proof. destruct rest as [|c r]; [auto|]. intros [->| ->]; repeat split; discriminate. Qed.

Definition numchar (c : Z) : bool := is_digit c || (c =? 45) || (c =? 46) || (c =? 101) || (c =? 69) || (c =? 43).
Notation numstr := (Forall (fun c => numchar c = true)).

Definition stops (rest : str) : Prop := match rest with [] => True | c :: _ => numchar c = false end.

Lemma delim_stops rest : delim rest -> stops rest.
Proof. destruct rest as [|c r]; [auto|]. intros [->| ->]; reflexivity. Qed.

Lemma numchar_false c : numchar c = false ->
  is_digit c = false /\ (c =? 45) = false /\ (c =? 46) = false /\ (c =? 101) = false /\ (c =? 69) = false /\ (c =? 43) = false.
Proof. unfold numchar. intro H. repeat (apply orb_false_iff in H as [H ?]). auto 6. Qed.

Lemma numchar_neq c k : numchar c = true -> numchar k = false -> (c =? k) = false.
Proof. intros Hc Hk. apply Z.eqb_neq. intros ->. congruence. Qed.

Definition extp (rest : str) (p : str * str) : str * str := let '(t, r) := p in (t, r ++ rest).
Definition ext (rest : str) : option (str * str) -> option (str * str) := option_map (extp rest).

Lemma span_digits_app t rest : stops rest -> span_digits (t ++ rest) = extp rest (span_digits t).
Proof.
  intro Hr. induction t as [|c t IH]; cbn [app span_digits].
  - destruct rest as [|c r]; [reflexivity|]. cbn [span_digits]. rewrite (proj1 (numchar_false c Hr)). reflexivity.
  - destruct (is_digit c); [|reflexivity]. rewrite IH. destruct (span_digits t). reflexivity.
Qed.

(* scan_int after its optional sign *)
Definition scan_uint (sg s : str) : option (str * str) :=
  match s with
  | c :: t => if c =? 48 then Some (sg ++ [48], t)
              else let '(ds, r) := span_digits s in
                   match ds with [] => None | _ => Some (sg ++ ds, r) end
  | [] => None
  end.

Lemma scan_int_uint s : scan_int s = match s with
                                     | c :: t => if c =? 45 then scan_uint [45] t else scan_uint [] s
                                     | [] => None
                                     end.
Proof. destruct s as [|c t]; [reflexivity|]. unfold scan_int. destruct (c =? 45); reflexivity. Qed.

Lemma scan_uint_app sg s rest : stops rest -> scan_uint sg (s ++ rest) = ext rest (scan_uint sg s).
Proof.
  intro Hr. unfold scan_uint. rewrite span_digits_app by exact Hr. destruct s as [|c t]; cbn [app].
  - destruct rest as [|c r]; [reflexivity|]. destruct (numchar_false c Hr) as (Hd & _).
    destruct (Z.eqb_spec c 48) as [->|_]; [discriminate|reflexivity].
  - destruct (c =? 48); [reflexivity|]. destruct (span_digits (c :: t)) as [[|d ds] r0]; reflexivity.
Qed.

Lemma scan_int_app s rest : stops rest -> scan_int (s ++ rest) = ext rest (scan_int s).
Proof.
  intro Hr. rewrite !scan_int_uint. destruct s as [|c t]; cbn [app].
  - destruct rest as [|c r]; [reflexivity|]. destruct (numchar_false c Hr) as (_ & -> & _). exact (scan_uint_app [] [] _ Hr).
  - destruct (c =? 45); [|change (c :: t ++ rest) with ((c :: t) ++ rest)]; apply scan_uint_app, Hr.
Qed.

Lemma scan_frac_app s rest : stops rest -> scan_frac (s ++ rest) = extp rest (scan_frac s).
Proof.
  intro Hr. destruct s as [|c t]; cbn [app scan_frac].
  - destruct rest as [|c r]; [reflexivity|]. cbn [scan_frac]. destruct (numchar_false c Hr) as (_ & _ & -> & _). reflexivity.
  - destruct (c =? 46); [|reflexivity]. rewrite span_digits_app by exact Hr.
    destruct (span_digits t) as [[|d ds] r0]; reflexivity.
Qed.

Lemma scan_exp_app s rest : stops rest -> scan_exp (s ++ rest) = extp rest (scan_exp s).
Proof.
  intro Hr. destruct s as [|e t]; cbn [app scan_exp].
  - destruct rest as [|c r]; [reflexivity|]. cbn [scan_exp]. destruct (numchar_false c Hr) as (_ & _ & _ & -> & -> & _). reflexivity.
  - destruct ((e =? 101) || (e =? 69)); [|reflexivity]. destruct t as [|c t']; cbn [app].
    + destruct rest as [|c r]; [reflexivity|]. destruct (numchar_false c Hr) as (Hd & -> & _ & _ & _ & ->).
      cbn [orb span_digits]. rewrite Hd. reflexivity.
    + destruct ((c =? 43) || (c =? 45)); [|change (c :: t' ++ rest) with ((c :: t') ++ rest)];
        rewrite span_digits_app by exact Hr; [destruct (span_digits t') as [[|d ds] r0]|destruct (span_digits (c :: t')) as [[|d ds] r0]];
        reflexivity.
Qed.

(* a scanner does not look past the first character that cannot occur in a number *)
Theorem scan_num_ext s rest : stops rest -> scan_num (s ++ rest) = ext rest (scan_num s).
Proof.
  intro Hr. unfold scan_num. rewrite scan_int_app by exact Hr. destruct (scan_int s) as [[i r1]|]; [|reflexivity]. cbn [ext option_map extp].
  rewrite scan_frac_app by exact Hr. destruct (scan_frac r1) as [f r2]. cbn [extp].
  rewrite scan_exp_app by exact Hr. destruct (scan_exp r2) as [x r3]. reflexivity.
Qed.

(* so a token begins with such a character, and one that is read whole consists of them *)
Lemma scan_num_head s tok r : scan_num s = Some (tok, r) -> exists c t, s = c :: t /\ numchar c = true.
Proof.
  destruct s as [|c t]; [discriminate|]. intro H. exists c, t. split; [reflexivity|].
  destruct (numchar c) eqn:E; [reflexivity|]. rewrite (scan_num_ext [] (c :: t) E : scan_num (c :: t) = None) in H. discriminate.
Qed.

Lemma scan_num_chars tok : scan_num tok = Some (tok, []) -> numstr tok.
Proof.
  intro H. destruct (Forall_Exists_dec (fun c => numchar c = true) (fun c => bool_dec _ _) tok) as [Hf|He]; [exact Hf|].
  apply Exists_exists in He as (c & Hin & Hc). apply in_split in Hin as (a & b & ->). apply not_true_is_false in Hc.
  rewrite (scan_num_ext a (c :: b) Hc) in H. destruct (scan_num a) as [[t [|x r]]|]; discriminate.
Qed.

Fixpoint depth (v : jv) : nat :=
  match v with
  | JArr l => S (fold_right (fun x m => Nat.max (depth x) m) O l)
  | JObj kvs => S (fold_right (fun kx m => Nat.max (depth (snd kx)) m) O kvs)
  | _ => O
  end.

(* well-formed: every number token is one the scanner reads back whole *)
Fixpoint wf (v : jv) : Prop :=
  match v with
  | JNum t => num_ok t
  | JArr l => fold_right (fun x P => wf x /\ P) True l
  | JObj kvs => fold_right (fun kx P => wf (snd kx) /\ P) True kvs
  | _ => True
  end.

Section JvInd.
Variable P : jv -> Prop.
Hypothesis Hn : P JNull.
Hypothesis Hb : forall b, P (JBool b).
Hypothesis Hnum : forall t, P (JNum t).
Hypothesis Hs : forall s, P (JStr s).
Hypothesis Ha : forall l, Forall P l -> P (JArr l).
Hypothesis Ho : forall kvs, Forall (fun kv : str * jv => P (snd kv)) kvs -> P (JObj kvs).
Fixpoint jv_ind' (v : jv) : P v :=
  match v with
  | JNull => Hn
  | JBool b => Hb b
  | JNum t => Hnum t
  | JStr s => Hs s
  | JArr l => Ha l ((fix go (l : list jv) : Forall P l :=
                       match l with [] => Forall_nil _ | x :: xs => Forall_cons _ (jv_ind' x) (go xs) end) l)
  | JObj kvs => Ho kvs ((fix go (l : list (str * jv)) : Forall (fun kv => P (snd kv)) l :=
                           match l with [] => Forall_nil _ | kv :: xs => Forall_cons _ (jv_ind' (snd kv)) (go xs) end) kvs)
  end.
End JvInd.

Definition children (v : jv) : list jv :=
  match v with JArr l => l | JObj kvs => map snd kvs | _ => [] end.

Lemma wf_arr l : wf (JArr l) <-> Forall wf l.
Proof. symmetry. apply Forall_fold_right. Qed.

Lemma wf_obj kvs : wf (JObj kvs) <-> Forall (fun kv => wf (snd kv)) kvs.
Proof. symmetry. apply (Forall_fold_right (fun kv => wf (snd kv))). Qed.

Lemma wf_child v c : wf v -> In c (children v) -> wf c.
Proof.
  destruct v; try (intros _ []).
  - intros H Hc. apply wf_arr in H. exact (proj1 (Forall_forall _ _) H c Hc).
  - intros H Hc. apply wf_obj in H. apply in_map_iff in Hc as (kv & <- & Hkv). exact (proj1 (Forall_forall _ _) H kv Hkv).
Qed.

Lemma depth_child v c : In c (children v) -> (depth c < depth v)%nat.
Proof.
  destruct v; cbn [children depth]; try (intros []); intro Hc; apply le_n_S.
  - apply (fold_max_ge depth), Hc.
  - apply in_map_iff in Hc as (kv & <- & Hkv). apply (fold_max_ge (fun kx => depth (snd kx))), Hkv.
Qed.

(* what print writes after the first element of a list or dictionary: each further one, with text g, after a comma
   and a new line; a member's text is its quoted key, colon, space, value *)
Fixpoint sep_items {A} (g : A -> str) (ind : nat) (l : list A) : str :=
  match l with [] => [] | y :: ys => [44] ++ nl ind ++ g y ++ sep_items g ind ys end.
Definition member_text (ind : nat) (kv : str * jv) : str := quote (fst kv) ++ [58; 32] ++ print ind (snd kv).

Lemma print_arr ind x xs :
  print ind (JArr (x :: xs)) = [91] ++ nl (S ind) ++ print (S ind) x ++ sep_items (print (S ind)) (S ind) xs ++ nl ind ++ [93].
Proof.
  cbn [print]. do 3 apply f_equal. apply (f_equal (fun l => l ++ _)).
  induction xs as [|y ys IH]; [reflexivity|]. cbn [sep_items]. rewrite <- IH. reflexivity.
Qed.

Lemma member_text_app ind k x s : member_text ind (k, x) ++ s = quote k ++ 58 :: 32 :: print ind x ++ s.
Proof. unfold member_text. rewrite <- !app_assoc. reflexivity. Qed.

Lemma print_obj ind kv kvs :
  print ind (JObj (kv :: kvs)) =
  [123] ++ nl (S ind) ++ member_text (S ind) kv ++ sep_items (member_text (S ind)) (S ind) kvs ++ nl ind ++ [125].
Proof.
  destruct kv as [k x]. rewrite member_text_app. cbn [print app]. do 6 apply f_equal. apply (f_equal (fun l => l ++ _)).
  induction kvs as [|[k' y] ys IH]; [reflexivity|]. cbn [sep_items]. rewrite member_text_app, <- IH. reflexivity.
Qed.

Section SepItems.
Context {A : Type} (g : A -> str).

Lemma sep_items_app ind y ys s : sep_items g ind (y :: ys) ++ s = 44 :: nl ind ++ g y ++ sep_items g ind ys ++ s.
Proof. cbn [sep_items]. rewrite <- !app_assoc. reflexivity. Qed.

Lemma length_sep ind p l s : (List.length l <= List.length (p ++ sep_items g ind l ++ s))%nat.
Proof.
  rewrite app_length. apply Nat.le_trans with (List.length (sep_items g ind l ++ s)); [|apply Nat.le_add_l].
  induction l as [|y ys IH]; [apply Nat.le_0_l|]. rewrite sep_items_app.
  apply le_n_S, (Nat.le_trans _ _ _ IH). rewrite (app_length (nl ind)), (app_length (g y)). lia.
Qed.

Lemma max_le_sep (f : A -> nat) ind l : Forall (fun y => (f y <= List.length (g y))%nat) l ->
  (fold_right (fun y m => Nat.max (f y) m) O l <= List.length (sep_items g ind l))%nat.
Proof.
  induction 1 as [|y ys Hy _ IH]; [apply Nat.le_0_l|]. cbn [fold_right sep_items]. rewrite !app_length. lia.
Qed.
End SepItems.

(* p reads v from txt and stops at its end, whatever delimited text follows *)
Definition reads {A} (p : str -> option (A * str)) (txt : str) (v : A) : Prop :=
  forall rest, delim rest -> p (txt ++ rest) = Some (v, rest).

Lemma skip_ws_spaces n s : skip_ws (repeat 32 n ++ s) = skip_ws s.
Proof. induction n as [|n IH]; [reflexivity|exact IH]. Qed.

Lemma skip_ws_nl k s : skip_ws (nl k ++ s) = skip_ws s.
Proof. exact (skip_ws_spaces (4 * k) s). Qed.

(* the first character of a printed value: not whitespace and no closing bracket *)
Definition startb (c : Z) : bool := negb (is_ws c || (c =? 93) || (c =? 125)).
Definition starts_value (s : str) : Prop := match s with [] => False | c :: _ => startb c = true end.

Lemma startb_true c : startb c = true -> is_ws c = false /\ (c =? 93) = false /\ (c =? 125) = false.
Proof. unfold startb. intro H. apply negb_true_iff in H. do 2 (apply orb_false_iff in H as [H ?]). auto. Qed.

Lemma skip_ws_starts s : starts_value s -> skip_ws s = s.
Proof. destruct s as [|c t]; [intros []|]. intro H. cbn [skip_ws]. rewrite (proj1 (startb_true c H)). reflexivity. Qed.

Lemma numchar_starts c s : numchar c = true -> starts_value (c :: s).
Proof.
  intro H. pose proof (fun k => numchar_neq c k H) as N. cbn [starts_value]. unfold startb, is_ws.
  rewrite (N 32), (N 9), (N 10), (N 13), (N 93), (N 125) by reflexivity. reflexivity.
Qed.

Lemma print_starts ind v rest : wf v -> starts_value (print ind v ++ rest).
Proof.
  intro Hw. destruct v as [|[|]|t|s|[|x xs]|[|[k x] kvs]]; try reflexivity.
  destruct Hw as [H|[->|[->| ->]]]; [|reflexivity..].
  destruct (scan_num_head _ _ _ H) as (c & t' & -> & Hc). apply numchar_starts, Hc.
Qed.

Lemma parse_val_str f s : parse_val (S f) (34 :: s) = match scan_str s with Some (x, r) => Some (JStr x, r) | None => None end.
Proof. reflexivity. Qed.

Lemma parse_val_num f s tok r : scan_num s = Some (tok, r) -> parse_val (S f) s = Some (JNum tok, r).
Proof.
  intro H. destruct (scan_num_head _ _ _ H) as (c & t & -> & Hc). pose proof (fun k => numchar_neq c k Hc) as N.
  cbn [parse_val]. rewrite H, (N 34), (N 123), (N 91), (N 110), (N 116), (N 102) by reflexivity. reflexivity.
Qed.

Lemma parse_val_arr f k s : starts_value s ->
  parse_val (S f) (91 :: nl k ++ s) =
  match parse_elems (parse_val f) (S (List.length s)) s with Some (vs, r) => Some (JArr vs, r) | None => None end.
Proof.
  intro Hs. cbn [parse_val Z.eqb Pos.eqb]. rewrite skip_ws_nl, (skip_ws_starts s Hs).
  destruct s as [|c t]; [destruct Hs|]. destruct (startb_true c Hs) as (_ & H & _). rewrite H. reflexivity.
Qed.

Lemma parse_val_obj f k s : starts_value s ->
  parse_val (S f) (123 :: nl k ++ s) =
  match parse_members (parse_val f) (S (List.length s)) s with Some (kvs, r) => Some (JObj kvs, r) | None => None end.
Proof.
  intro Hs. cbn [parse_val Z.eqb Pos.eqb]. rewrite skip_ws_nl, (skip_ws_starts s Hs).
  destruct s as [|c t]; [destruct Hs|]. destruct (startb_true c Hs) as (_ & _ & H). rewrite H. reflexivity.
Qed.

(* the loop over the items of a list or dictionary, after the opening bracket: p reads one item, with text g y,
   and then either the closing bracket or a comma and the remaining items *)
Section SepLoop.
Context {A : Type} (g : A -> str) (good : A -> Prop) (p : nat -> str -> option (list A * str)) (close : Z).
Hypothesis g_starts : forall y s, good y -> starts_value (g y ++ s).
Hypothesis close_ws : is_ws close = false.
Hypothesis p_item : forall n y s r, good y -> delim s ->
  (skip_ws s = close :: r -> p (S n) (g y ++ s) = Some ([y], r)) /\
  (skip_ws s = 44 :: r ->
   p (S n) (g y ++ s) = match p n (skip_ws r) with Some (ys, r') => Some (y :: ys, r') | None => None end).

Lemma sep_loop ind k rest : forall xs x n, (List.length xs < n)%nat -> (forall y, In y (x :: xs) -> good y) ->
  p n (g x ++ sep_items g ind xs ++ nl k ++ close :: rest) = Some (x :: xs, rest).
Proof.
  induction xs as [|y ys IH]; intros x n Hn H; (destruct n as [|n']; [inversion Hn|]);
    pose proof (H x (or_introl eq_refl)) as Hx.
  - apply (p_item n' x (nl k ++ close :: rest)); [exact Hx|right; reflexivity|].
    rewrite skip_ws_nl. cbn [skip_ws]. rewrite close_ws. reflexivity.
  - erewrite (proj2 (p_item n' x (sep_items g ind (y :: ys) ++ _) _ Hx (or_introl eq_refl))) by (rewrite sep_items_app; reflexivity).
    rewrite skip_ws_nl, skip_ws_starts, (IH y n').
    + reflexivity.
    + apply Nat.succ_lt_mono, Hn.
    + intros v Hv. apply H. right. exact Hv.
    + apply g_starts, H. right. left. reflexivity.
Qed.
End SepLoop.

Section ItemLoops.
Variable pv : str -> option (jv * str).

Lemma elems_loop ind k rest xs x n : (List.length xs < n)%nat ->
  (forall v, In v (x :: xs) -> wf v /\ reads pv (print ind v) v) ->
  parse_elems pv n (print ind x ++ sep_items (print ind) ind xs ++ nl k ++ 93 :: rest) = Some (x :: xs, rest).
Proof.
  apply (sep_loop (print ind) (fun v => wf v /\ reads pv (print ind v) v) (parse_elems pv) 93).
  - intros y s [Hw _]. apply print_starts, Hw.
  - reflexivity.
  - intros n' y s r [_ Hy] Hs. cbn [parse_elems]. rewrite (Hy s Hs). split; intros ->; reflexivity.
Qed.

Lemma members_loop ind c rest kvs kv n : (List.length kvs < n)%nat ->
  (forall v, In v (map snd (kv :: kvs)) -> wf v /\ reads pv (print ind v) v) ->
  parse_members pv n (member_text ind kv ++ sep_items (member_text ind) ind kvs ++ nl c ++ 125 :: rest)
  = Some (kv :: kvs, rest).
Proof.
  intros Hn H.
  apply (sep_loop (member_text ind) (fun kx => wf (snd kx) /\ reads pv (print ind (snd kx)) (snd kx)) (parse_members pv) 125);
    [| | |exact Hn|intros kx Hkx; apply H, in_map, Hkx].
  - intros [k x] s _. rewrite member_text_app, quote_app. reflexivity.
  - reflexivity.
  - intros n' [k x] s r [Hw Hx] Hs. cbn [snd] in Hx.
    eassert (E : parse_members pv (S n') (member_text ind (k, x) ++ s) = _).
    { rewrite member_text_app, quote_app. cbn [parse_members]. rewrite scan_str_quote.
      change (skip_ws (58 :: 32 :: print ind x ++ s)) with (58 :: 32 :: print ind x ++ s). cbv iota.
      change (skip_ws (32 :: print ind x ++ s)) with (skip_ws (print ind x ++ s)).
      rewrite skip_ws_starts by apply print_starts, Hw. rewrite (Hx s Hs). reflexivity. }
    rewrite E. split; intros ->; reflexivity.
Qed.
End ItemLoops.

(* what the scanner reads from the printed text of a value - at any indentation, followed by anything that can
   follow a value - is that value, and it stops exactly at its end; the fuel f is used up one unit for each level
   of nesting *)
Theorem parse_print : forall f v ind rest, (depth v < f)%nat -> wf v -> delim rest ->
  parse_val f (print ind v ++ rest) = Some (v, rest).
Proof.
  induction f as [|f IH]; intros v ind rest Hd Hw Hr; [inversion Hd|].
  assert (Hc : forall i c, In c (children v) -> wf c /\ reads (parse_val f) (print i c) c).
  { intros i c Hc. pose proof (wf_child v c Hw Hc). pose proof (depth_child v c Hc). split; [assumption|].
    intros r Hdr. apply IH; [lia|assumption..]. }
  destruct v as [|[|]|t|s|[|x xs]|[|[k x] kvs]]; try reflexivity.
  - destruct Hw as [Hs|[->|[->| ->]]]; try reflexivity.
    apply parse_val_num. cbn [print]. rewrite scan_num_ext, Hs by apply delim_stops, Hr. reflexivity.
  - cbn [print]. rewrite quote_app, parse_val_str, scan_str_quote. reflexivity.
  - rewrite print_arr, <- !app_assoc. cbn [app]. rewrite parse_val_arr by (apply print_starts, (Hc ind x); left; reflexivity).
    rewrite elems_loop; [reflexivity|apply Nat.lt_succ_r, length_sep|exact (Hc (S ind))].
  - rewrite print_obj, <- !app_assoc. cbn [app]. rewrite parse_val_obj by (rewrite member_text_app, quote_app; reflexivity).
    rewrite members_loop; [reflexivity|apply Nat.lt_succ_r, length_sep|exact (Hc (S ind))].
Qed.

(* parse_json gives parse_val the length of the text as fuel; every level of nesting writes a bracket, so this
   exceeds the depth *)
Lemma depth_le_length v : forall ind, (depth v <= List.length (print ind v))%nat.
Proof.
  induction v as [| | | |l IH|kvs IH] using jv_ind'; intro ind; try apply Nat.le_0_l.
  - destruct l as [|x xs]; [apply Nat.le_succ_diag_r|]. rewrite print_arr.
    eapply Nat.le_trans; [apply le_n_S, (max_le_sep (print (S ind)) depth (S ind))|].
    + revert IH. apply Forall_impl. intros y H. apply H.
    + cbn [sep_items]. rewrite !app_length. cbn [List.length]. lia.
  - destruct kvs as [|kv kvs]; [apply Nat.le_succ_diag_r|]. rewrite print_obj.
    eapply Nat.le_trans; [apply le_n_S, (max_le_sep (member_text (S ind)) (fun kx => depth (snd kx)) (S ind))|].
    + revert IH. apply Forall_impl. intros kx H. unfold member_text. rewrite !app_length. specialize (H (S ind)). lia.
    + cbn [sep_items]. rewrite !app_length. cbn [List.length]. lia.
Qed.

(* json.loads reads back the value from the printed text followed by the final newline *)
Theorem parse_json_print v : wf v -> parse_json (print 0 v ++ [10]) = Some v.
Proof.
  intro Hw. unfold parse_json. rewrite skip_ws_starts by (apply print_starts; exact Hw).
  rewrite parse_print; [reflexivity| |exact Hw|right; reflexivity].
  pose proof (depth_le_length v 0). rewrite app_length. lia.
Qed.

(* state while reading a text: the last character of the current line (None at the start of a line) *)
Definition st_ok (st : option Z) : bool := match st with None => true | Some c => negb (py_space c) end.

Fixpoint lscan (st : option Z) (s : str) : option (option Z) :=
  match s with
  | [] => Some st
  | x :: s' => if x =? 10 then (if st_ok st then lscan None s' else None) else lscan (Some x) s'
  end.

Definition clean (st : option Z) (s : str) : Prop := exists st', lscan st s = Some st' /\ st_ok st' = true.

Definition st_of (cur : str) : option Z := match cur with [] => None | c :: _ => Some c end.

Lemma rstrip_ok cur : st_ok (st_of cur) = true -> rstrip (rev cur) = rev cur.
Proof.
  unfold rstrip. rewrite rev_involutive. destruct cur as [|c t]; [reflexivity|]. cbn.
  intro H. apply negb_true_iff in H. rewrite H. reflexivity.
Qed.

Lemma split_nonempty c s cur : split_char_aux c s cur <> [].
Proof. revert cur. induction s as [|x s IH]; intro cur; cbn [split_char_aux]; [discriminate|]. destruct (x =? c); [discriminate|apply IH]. Qed.

Lemma join_cons sep p ps : ps <> [] -> join sep (p :: ps) = p ++ sep ++ join sep ps.
Proof. destruct ps; [congruence|reflexivity]. Qed.

Lemma strip_clean s : forall cur, clean (st_of cur) s ->
  join [10] (map rstrip (split_char_aux 10 s cur)) = rev cur ++ s.
Proof.
  induction s as [|x s IH]; intros cur (st' & Hl & Hok); cbn [lscan split_char_aux] in *.
  - injection Hl as <-. cbn [map join]. rewrite rstrip_ok by exact Hok. symmetry. apply app_nil_r.
  - destruct (Z.eqb_spec x 10) as [->|_].
    + destruct (st_ok (st_of cur)) eqn:Hc; [|discriminate]. cbn [map].
      rewrite join_cons by (intro E; apply map_eq_nil in E; exact (split_nonempty _ _ _ E)).
      rewrite rstrip_ok, (IH []) by (exact Hc || exists st'; auto). reflexivity.
    + rewrite (IH (x :: cur)) by (exists st'; auto). cbn [rev]. rewrite <- app_assoc. reflexivity.
Qed.

Theorem strip_lines_clean s : clean None s -> strip_lines s = s.
Proof. exact (strip_clean s []). Qed.

Lemma lscan_app st a b : lscan st (a ++ b) = match lscan st a with Some st' => lscan st' b | None => None end.
Proof.
  revert st. induction a as [|x a IH]; intro st; [reflexivity|]. cbn [app lscan].
  destruct (x =? 10); [destruct (st_ok st); [apply IH|reflexivity]|apply IH].
Qed.

(* tidy: clean whatever precedes; safe: clean after a line that does not end in whitespace so far *)
Definition tidy (s : str) : Prop := forall st, clean st s.
Definition safe (s : str) : Prop := forall st, st_ok st = true -> clean st s.

Lemma tidy_safe s : tidy s -> safe s.
Proof. intros H st _. apply H. Qed.

Lemma safe_nil : safe [].
Proof. intros st H. exists st. auto. Qed.

Lemma clean_app st a b : clean st a -> safe b -> clean st (a ++ b).
Proof.
  intros (st1 & E1 & H1) Hb. destruct (Hb st1 H1) as (st2 & E2 & H2). exists st2. rewrite lscan_app, E1. auto.
Qed.

Lemma safe_app a b : safe a -> safe b -> safe (a ++ b).
Proof. intros Ha Hb st H. apply clean_app; auto. Qed.

Lemma tidy_app a b : tidy a -> safe b -> tidy (a ++ b).
Proof. intros Ha Hb st. apply clean_app; auto. Qed.

Lemma tidy_cons c s : (c =? 10) = false -> tidy s -> tidy (c :: s).
Proof. intros Hc Hs st. unfold clean. cbn [lscan]. rewrite Hc. apply Hs. Qed.

Lemma py_space_nl c : py_space c = false -> (c =? 10) = false.
Proof. intro H. destruct (Z.eqb_spec c 10) as [->|_]; [discriminate|reflexivity]. Qed.

Lemma tidy_cons_safe c s : py_space c = false -> safe s -> tidy (c :: s).
Proof. intros Hc Hs st. unfold clean. cbn [lscan]. rewrite (py_space_nl c Hc). apply Hs. cbn [st_ok]. rewrite Hc. reflexivity. Qed.

Lemma tidy_char c : py_space c = false -> tidy [c].
Proof. intro H. apply tidy_cons_safe; [exact H|apply safe_nil]. Qed.

Lemma tidy_spaces n s : tidy s -> tidy (repeat 32 n ++ s).
Proof. intro H. induction n as [|n IH]; [exact H|]. apply tidy_cons; [reflexivity|exact IH]. Qed.

Lemma safe_nl k s : tidy s -> safe (nl k ++ s).
Proof.
  intros Hs st H. unfold clean, nl. cbn [app lscan Z.eqb Pos.eqb]. rewrite H. apply (tidy_spaces _ _ Hs).
Qed.

Lemma tidy_line s c : ~ In 10 s -> py_space c = false -> tidy (s ++ [c]).
Proof.
  intros Hs Hc. induction s as [|x s IH]; [apply tidy_char, Hc|]. apply tidy_cons.
  - apply Z.eqb_neq. intro E. apply Hs. left. exact E.
  - apply IH. intro H. apply Hs. right. exact H.
Qed.

Lemma tidy_quote k : tidy (quote k).
Proof. apply tidy_cons; [reflexivity|]. apply tidy_line; [apply quote_no_nl|reflexivity]. Qed.

Lemma py_space_printable c : 33 <= c <= 132 -> py_space c = false.
Proof.
  intro H. assert (N : forall k, 132 < k -> (c =? k) = false) by (intros k Hk; apply Z.eqb_neq; lia).
  unfold py_space. rewrite (proj2 (Z.leb_gt c 13)), (proj2 (Z.leb_gt c 32)), (proj2 (Z.leb_gt 8192 c)) by lia.
  rewrite !N by reflexivity. rewrite !andb_false_r. reflexivity.
Qed.

Lemma numchar_not_space c : numchar c = true -> py_space c = false.
Proof.
  intro H. apply py_space_printable. unfold numchar, is_digit in H.
  repeat (apply orb_true_iff in H as [H|H]); try (apply Z.eqb_eq in H; lia).
  apply andb_true_iff in H as [H1 H2]. apply Z.leb_le in H1, H2. lia.
Qed.

Lemma tidy_num tok : num_ok tok -> tidy tok.
Proof.
  intros [H|[->|[->| ->]]]; try (intro st; eexists; split; reflexivity).
  pose proof (scan_num_chars _ H) as Hc. destruct (@exists_last _ tok) as (l & a & ->); [intros ->; discriminate|].
  apply Forall_app in Hc as [Hl Ha]. apply Forall_cons_iff in Ha as [Ha _].
  apply tidy_line; [|apply numchar_not_space, Ha]. intro Hin. apply (proj1 (Forall_forall _ _) Hl) in Hin. discriminate.
Qed.

Lemma safe_sep {A} (g : A -> str) ind l : Forall (fun y => tidy (g y)) l -> safe (sep_items g ind l).
Proof.
  induction 1 as [|y ys Hy _ IH]; [apply safe_nil|].
  apply tidy_safe, tidy_cons_safe; [reflexivity|]. apply safe_nl, tidy_app; [exact Hy|exact IH].
Qed.

Lemma tidy_block {A} (g : A -> str) o c ind x l : py_space o = false -> py_space c = false -> Forall (fun y => tidy (g y)) (x :: l) ->
  tidy ([o] ++ nl (S ind) ++ g x ++ sep_items g (S ind) l ++ nl ind ++ [c]).
Proof.
  intros Ho Hc H. apply Forall_cons_iff in H as [Hx Hl]. apply tidy_cons_safe; [exact Ho|].
  apply safe_nl, tidy_app; [exact Hx|]. apply safe_app; [apply safe_sep, Hl|]. apply safe_nl, tidy_char, Hc.
Qed.

Lemma tidy_member ind kv : tidy (print ind (snd kv)) -> tidy (member_text ind kv).
Proof. intro H. apply tidy_app; [apply tidy_quote|]. apply tidy_safe. do 2 (apply tidy_cons; [reflexivity|]). exact H. Qed.

Theorem print_tidy v : wf v -> forall ind, tidy (print ind v).
Proof.
  induction v as [| |t|s|l IH|kvs IH] using jv_ind'; intros Hw ind.
  - intro st. eexists. split; reflexivity.
  - destruct b; intro st; eexists; split; reflexivity.
  - apply tidy_num, Hw.
  - apply tidy_quote.
  - apply wf_arr in Hw. apply (Forall_mp _ _ _ IH) in Hw. destruct l as [|x xs]; [intro st; eexists; split; reflexivity|].
    rewrite print_arr. apply tidy_block; [reflexivity..|]. revert Hw. apply Forall_impl. intros y H. apply H.
  - apply wf_obj in Hw. apply (Forall_mp _ _ _ IH) in Hw. destruct kvs as [|kv kvs]; [intro st; eexists; split; reflexivity|].
    rewrite print_obj. apply tidy_block; [reflexivity..|]. revert Hw. apply Forall_impl. intros y H. apply tidy_member, H.
Qed.

(* the text to_json returns: strip_lines changes nothing in what json.dumps wrote ... *)
Theorem to_json_text_print v : wf v -> to_json_text v = print 0%nat v ++ [10].
Proof. intro Hw. unfold to_json_text. rewrite strip_lines_clean by apply print_tidy, Hw. reflexivity. Qed.

(* ... and json.loads gives back the value written: the text is valid JSON for exactly that value *)
Theorem parse_to_json_text v : wf v -> parse_json (to_json_text v) = Some v.
Proof. intro Hw. rewrite to_json_text_print by exact Hw. apply parse_json_print, Hw. Qed.

(* the decidable form of well-formedness (evaluated by the harness on every value tdda writes) *)
Lemma num_okb_ok tok : num_okb tok = true -> num_ok tok.
Proof.
  unfold num_okb, num_ok. intro H. repeat (apply orb_true_iff in H as [H|H]); try (apply str_eqb_eq in H; auto).
  left. destruct (scan_num tok) as [[t [|c r]]|]; try discriminate. apply str_eqb_eq in H. subst t. reflexivity.
Qed.

Theorem wfb_wf v : wfb v = true -> wf v.
Proof.
  induction v as [| | | |l IH|kvs IH] using jv_ind'; cbn [wfb]; intro H; try exact I.
  - apply num_okb_ok, H.
  - apply wf_arr, (Forall_mp _ _ _ IH), Forall_forall, forallb_forall, H.
  - apply wf_obj, (Forall_mp _ _ _ IH), Forall_forall, (forallb_forall (fun kv => wfb (snd kv))), H.
Qed.
