(* C08: SQL string literals as built for the REGEXP verification, and single-row perturbations. *)
From Coq Require Import ZArith List Lia.
From Tdda Require Import Base.Sexp Constraints.Model.
Import ListNotations.
Open Scope Z_scope.

Definition q : Z := 39.   (* ' *)

Fixpoint sql_escape (s : str) : str :=
  match s with
  | [] => []
  | c :: r => if Z.eqb c q then q :: q :: sql_escape r else c :: sql_escape r
  end.
Definition sql_literal (s : str) : str := q :: sql_escape s ++ [q].

(* the SQL lexer's reading of a literal body (after the opening quote): content and the rest *)
Fixpoint sql_lex_body (fuel : nat) (s : str) : option (str * str) :=
  match fuel with
  | O => None
  | S f =>
    match s with
    | [] => None
    | c :: r =>
      if Z.eqb c q then
        match r with
        | c2 :: r2 => if Z.eqb c2 q then option_map (fun p => (q :: fst p, snd p)) (sql_lex_body f r2)
                      else Some ([], r)
        | [] => Some ([], [])
        end
      else option_map (fun p => (c :: fst p, snd p)) (sql_lex_body f r)
    end
  end.

Lemma sql_lex_escape s : forall rest fuel,
  (length (sql_escape s) < fuel)%nat ->
  match rest with c :: _ => Z.eqb c q = false | [] => True end ->
  sql_lex_body fuel (sql_escape s ++ q :: rest) = Some (s, rest).
Proof.
  induction s as [|c s IH]; intros rest fuel Hf Hr; cbn [sql_escape] in *.
  - destruct fuel; [lia|]. cbn [app sql_lex_body]. rewrite Z.eqb_refl.
    destruct rest as [|c2 r2]; [reflexivity|]. rewrite Hr. reflexivity.
  - destruct (Z.eqb c q) eqn:E; cbn [app length] in *; (destruct fuel as [|fuel]; [lia|]); cbn [sql_lex_body].
    + apply Z.eqb_eq in E. subst c. rewrite !Z.eqb_refl, IH by (auto; lia). reflexivity.
    + rewrite E, IH by (auto; lia). reflexivity.
Qed.

(* without escaping, an expression containing a quote ends the literal early *)
Example unescaped_quote_breaks :
  sql_lex_body 10 ([97; 39; 98] ++ [q]) = Some ([97], [98; 39]).
Proof. reflexivity. Qed.

Definition add_row (c : column) (cell : option value) : column :=
  {| c_type := c_type c; c_cells := c_cells c ++ [cell] |}.

Lemma non_nulls_add_some c v : non_nulls (add_row c (Some v)) = non_nulls c ++ [v].
Proof. unfold non_nulls, add_row. cbn [c_cells]. rewrite flat_map_app. reflexivity. Qed.

Lemma In_add_row c v : In v (non_nulls (add_row c (Some v))).
Proof. rewrite non_nulls_add_some. apply in_or_app. right. left. reflexivity. Qed.

Lemma null_count_add_null c : null_count (add_row c None) = null_count c + 1.
Proof. unfold null_count, add_row. cbn [c_cells]. rewrite filter_app, app_length. cbn [filter length]. lia. Qed.
