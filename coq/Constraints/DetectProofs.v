(* detect (C06): what a false flag in a cell says; a flag column exists exactly for a failing constraint, so detection
   yields no column iff verification passes everything; a record's failure count is its number of false flags. *)
From Coq Require Import ZArith List Lia.
From Tdda Require Import Base.ListFacts Constraints.Model Constraints.Detect.
Import ListNotations.
Open Scope Z_scope.

(* a column of flags computed per cell, with [d] for a null cell: false exactly on the values that fail [f] *)
Lemma cell_flag_false_iff (d : flag) (f : value -> bool) cells i : d <> Some false ->
  nth_error (map (fun o => match o with None => d | Some v => Some (f v) end) cells) i = Some (Some false) <->
  exists v, nth_error cells i = Some (Some v) /\ f v = false.
Proof.
  intro Hd. rewrite nth_error_map_Some. split.
  - intros ([v|] & E & H); [|contradiction]. injection H as H. eauto.
  - intros (v & E & H). exists (Some v). rewrite H. auto.
Qed.

Lemma per_cell_false_iff f c i :
  nth_error (per_cell f c) i = Some (Some false) <->
  exists v, nth_error (c_cells c) i = Some (Some v) /\ f v = false.
Proof. apply (cell_flag_false_iff None). discriminate. Qed.

Lemma all_false_nth c i : (i < length (c_cells c))%nat -> nth_error (all_false c) i = Some (Some false).
Proof.
  intro Hi. unfold all_false. rewrite nth_error_map.
  destruct (nth_error (c_cells c) i) eqn:E; [reflexivity|]. apply nth_error_None in E. lia.
Qed.

Lemma null_cell_flag (h : option value -> flag) c i :
  nth_error (c_cells c) i = Some None -> nth_error (map h (c_cells c)) i = Some (Some false) -> h None = Some false.
Proof. intros Hn Hf. rewrite (map_nth_error h _ _ Hn) in Hf. injection Hf as Hf. exact Hf. Qed.

(* a null value is flagged false only by the type and null-count rules *)
Theorem null_flag_only_type_or_nulls_proof c k fl i :
  detect_flags c k = Some fl -> nth_error (c_cells c) i = Some None -> nth_error fl i = Some (Some false) ->
  (exists ts, k = CType (Some ts)) \/ (exists n, k = CMaxNulls (Some n)) \/
  (* or the whole column is flagged because the constraint cannot apply to a column of this type *)
  fl = all_false c.
Proof.
  intros Hd Hn Hf.
  destruct k as [[ts|]|[b|]|[b|]|[n|]|[n|]|[s|]|[n|]|[[|]|]|[vs|]|[r|]]; cbn [detect_flags] in Hd; try discriminate.
  - left. exists ts. reflexivity.
  - destruct (negb _); injection Hd as <-; auto. discriminate (null_cell_flag _ c i Hn Hf).
  - destruct (negb _); injection Hd as <-; auto. discriminate (null_cell_flag _ c i Hn Hf).
  - destruct (ctype_eqb _ _); injection Hd as <-; auto. discriminate (null_cell_flag _ c i Hn Hf).
  - destruct (ctype_eqb _ _); injection Hd as <-; auto. discriminate (null_cell_flag _ c i Hn Hf).
  - destruct (col_coarse c); [|injection Hd as <-; auto..].
    destruct s; injection Hd as <-; discriminate (null_cell_flag _ c i Hn Hf).
  - right. left. exists n. reflexivity.
  - injection Hd as <-. discriminate (null_cell_flag _ c i Hn Hf).
  - injection Hd as <-. discriminate (null_cell_flag _ c i Hn Hf).
Qed.

(* detection judges constraints with the verifiers of plain verification: a flag column exists exactly for a
   failing constraint (a sign constraint on a non-numeric field, and a length or rex constraint on a non-string
   field, get an all-false column) *)
Lemma flags_of_None_iff p c k : flags_of p c k = None <-> verify p (Some c) k = true.
Proof.
  unfold flags_of. destruct (verify p (Some c) k) eqn:Hv; split; try reflexivity; try discriminate.
  destruct k as [[ts|]|[b|]|[b|]|[n|]|[n|]|[s|]|[n|]|[[|]|]|[vs|]|[r|]]; cbn [verify] in Hv; try discriminate;
    cbn [detect_flags].
  - destruct (negb _); discriminate.
  - destruct (negb _); discriminate.
  - destruct (ctype_eqb _ _); discriminate.
  - destruct (ctype_eqb _ _); discriminate.
  - destruct (col_coarse c); [|discriminate|discriminate]. destruct s; discriminate.
  - unfold detect_rex_flags. destruct (ctype_eqb _ _); discriminate.
Qed.

Lemma detect_no_columns_iff p fields nrows :
  d_columns (detect p fields nrows) = [] <->
  forall f k, In f fields -> In k (snd f) -> verify p (Some (fst f)) k = true.
Proof.
  assert (Hcol : forall c k, match flags_of p c k with Some l => [l] | None => [] end = [] <->
                             verify p (Some c) k = true).
  { intros c k. rewrite <- flags_of_None_iff. destruct (flags_of p c k); split; (reflexivity || discriminate). }
  unfold detect. cbn [d_columns]. rewrite flat_map_nil_iff. split.
  - intros H f k Hf Hk. apply Hcol. exact (proj1 (flat_map_nil_iff _ _) (H f Hf) k Hk).
  - intros H f Hf. apply flat_map_nil_iff. intros k Hk. apply Hcol. exact (H f k Hf Hk).
Qed.

Lemma row_failures_length cols n : length (row_failures cols n) = n.
Proof. revert cols. induction n as [|n IH]; intro cols; cbn [row_failures length]; [|rewrite IH]; reflexivity. Qed.

Theorem nfailures_length_proof p fields nrows : length (d_nfailures (detect p fields nrows)) = nrows.
Proof. apply row_failures_length. Qed.

Definition is_false_at (i : nat) (col : list flag) : bool :=
  match nth_error col i with Some (Some false) => true | _ => false end.

(* each record's failure count is its number of false flags *)
Theorem nfail_is_count_false_proof cols n i : (i < n)%nat ->
  nth i (row_failures cols n) 0 = Z.of_nat (length (filter (is_false_at i) cols)).
Proof.
  revert cols i; induction n as [|n IH]; intros cols i Hi; [lia|].
  destruct i as [|i]; cbn [row_failures nth].
  - do 2 f_equal. apply filter_ext. intros [|[[|]|] col]; reflexivity.
  - rewrite IH, filter_map_comm, map_length by lia. do 2 f_equal. apply filter_ext.
    intros [|x col]; [destruct i|]; reflexivity.
Qed.
