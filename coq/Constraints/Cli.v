(* C17: flag -> keyword translation of tdda verify / detect (tdda/constraints/flags.py). *)
From Coq Require Import ZArith List Bool.
From Tdda Require Import Base.Sexp.
Import ListNotations.
Open Scope Z_scope.

Inductive report := RAll | RFields | RRecords.

Record vflags := { vf_all : bool; vf_fields : bool; vf_ascii : bool; vf_tc : option bool; vf_eps : option Z }.
Record vparams := { vp_report : report; vp_ascii : bool; vp_tc : option bool; vp_eps : option Z }.

(* None = the command exits with status 1 (--all and --fields contradict each other) *)
Definition verify_params (f : vflags) : option vparams :=
  if vf_all f && vf_fields f then None
  else Some {| vp_report := if vf_all f then RAll else if vf_fields f then RFields else RAll;
               vp_ascii := vf_ascii f; vp_tc := vf_tc f; vp_eps := vf_eps f |}.

(* tdda discover: -r / -R; None = exit status 1, Some inc_rex otherwise *)
Definition discover_params (rex norex : bool) : option bool :=
  if rex && norex then None else Some rex.

Record dflags := {
  df_ascii : bool; df_tc : option bool; df_eps : option Z;
  df_write_all : bool; df_per_constraint : bool; df_no_per_constraint : bool;
  df_no_output_fields : bool; df_output_fields : option (list str);
  df_interleave : bool; df_index : bool; df_ints : bool
}.

Record dparams := {
  dp_ascii : bool; dp_tc : option bool; dp_eps : option Z;
  dp_write_all : bool;            (* absent = false *)
  dp_per_constraint : bool;
  dp_index : bool; dp_ints : bool; dp_interleave : bool;
  dp_output_fields : option (list str)      (* None = keyword not passed *)
}.

(* --output-fields was given (with or without names) *)
Definition nonempty_fields (o : option (list str)) : bool :=
  match o with Some _ => true | None => false end.

(* None = the command exits with status 1 *)
Definition detect_params (f : dflags) : option dparams :=
  if df_per_constraint f && df_no_per_constraint f then None
  else if nonempty_fields (df_output_fields f) && df_no_output_fields f then None
  else Some {| dp_ascii := df_ascii f; dp_tc := df_tc f; dp_eps := df_eps f;
               dp_write_all := df_write_all f;
               dp_per_constraint := negb (df_no_per_constraint f);
               dp_index := df_index f; dp_ints := df_ints f; dp_interleave := df_interleave f;
               dp_output_fields := match df_output_fields f with
                                   | Some l => Some l
                                   | None => if df_no_output_fields f then None else Some []
                                   end |}.

(* wire *)
Definition sx_ob (s : sexp) : option bool := sx_opt sx_bool s.
Definition of_ob (o : option bool) : sexp := of_opt of_bool o.
Definition of_report (r : report) : sexp := A (match r with RAll => 0 | RFields => 1 | RRecords => 2 end).

Definition cli_entry (s : sexp) : sexp :=
  match sx_Z (sx_nth 0 s) with
  | 0 =>
    let f := {| vf_all := sx_bool (sx_nth 1 s); vf_fields := sx_bool (sx_nth 2 s); vf_ascii := sx_bool (sx_nth 3 s);
                vf_tc := sx_ob (sx_nth 4 s); vf_eps := sx_opt sx_Z (sx_nth 5 s) |} in
    match verify_params f with
    | None => L []
    | Some p => L [L [of_report (vp_report p); of_bool (vp_ascii p); of_ob (vp_tc p); of_opt A (vp_eps p)]]
    end
  | 2 => of_opt of_bool (discover_params (sx_bool (sx_nth 1 s)) (sx_bool (sx_nth 2 s)))
  | _ =>
    let f := {| df_ascii := sx_bool (sx_nth 1 s); df_tc := sx_ob (sx_nth 2 s); df_eps := sx_opt sx_Z (sx_nth 3 s);
                df_write_all := sx_bool (sx_nth 4 s); df_per_constraint := sx_bool (sx_nth 5 s);
                df_no_per_constraint := sx_bool (sx_nth 6 s); df_no_output_fields := sx_bool (sx_nth 7 s);
                df_output_fields := sx_opt sx_strs (sx_nth 8 s);
                df_interleave := sx_bool (sx_nth 9 s); df_index := sx_bool (sx_nth 10 s);
                df_ints := sx_bool (sx_nth 11 s) |} in
    match detect_params f with
    | None => L []
    | Some p => L [L [of_bool (dp_ascii p); of_ob (dp_tc p); of_opt A (dp_eps p); of_bool (dp_write_all p);
                      of_bool (dp_per_constraint p); of_bool (dp_index p); of_bool (dp_ints p);
                      of_bool (dp_interleave p); of_opt of_strs (dp_output_fields p)]]
    end
  end.
