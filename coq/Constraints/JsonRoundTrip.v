(* C09, end to end at the level of the TEXT: a loaded constraint set is written with to_json and read back (json.loads
   with OrderedDict, then initialize_from_dict's key filtering).  Here: that model over JSON values, and that what is
   written is in canonical form and reads back as the set it was written from; Props/C09.v concludes that the reread
   set is the same set and that writing it again gives the identical text.  The values' own text round trip is
   JsonProofs.parse_print (strings with every escape, number tokens, nested lists and dictionaries such as
   precision-qualified bounds). *)
From Coq Require Import ZArith List.
From Tdda Require Import Base.Sexp Base.Str Generated.Consts Constraints.Serialise Constraints.SerialiseProofs
  Constraints.Json Constraints.JsonProofs.
Import ListNotations.
Open Scope Z_scope.

Definition s_fields : str := [102; 105; 101; 108; 100; 115].
Definition s_meta : str := [99; 114; 101; 97; 116; 105; 111; 110; 95; 109; 101; 116; 97; 100; 97; 116; 97].

(* to_dict: optional creation metadata, then the fields *)
Definition json_of_dataset (md : option jv) (d : @dataset jv) : jv :=
  JObj ((match md with Some m => [(s_meta, m)] | None => [] end)
        ++ [(s_fields, JObj (map (fun nf => (fst nf, JObj (snd nf))) d))]).

(* initialize_from_dict reads in_constraints['fields'] *)
Definition dataset_of_json (v : jv) : option (@dataset jv) :=
  match v with
  | JObj top =>
    match klookup s_fields top with
    | Some (JObj fs) => Some (map (fun nf => (fst nf, match snd nf with JObj kvs => kvs | _ => [] end)) fs)
    | _ => None
    end
  | _ => None
  end.

Definition written (md : option jv) (d : @dataset jv) : str := to_json_text (json_of_dataset md (dump d)).
Definition reread (t : str) : option (@dataset jv) :=
  match parse_json t with
  | Some v => option_map load (dataset_of_json (od_norm v))
  | None => None
  end.

(* distinct keys: the OrderedDict is the pair list *)
Lemma od_set_fresh k v d : ~ In k (map fst d) -> od_set k v d = d ++ [(k, v)].
Proof.
  induction d as [|[k' v'] d IH]; intro H; [reflexivity|]. cbn [od_set].
  destruct (str_eqb k k') eqn:E; [apply str_eqb_eq in E; subst; exfalso; apply H; left; reflexivity|].
  rewrite IH; [reflexivity|]. intro Hin. apply H. right. exact Hin.
Qed.

Lemma od_of_pairs_gen kvs : forall acc, NoDup (map fst (acc ++ kvs)) ->
  fold_left (fun d kv => od_set (fst kv) (snd kv) d) kvs acc = acc ++ kvs.
Proof.
  induction kvs as [|[k v] kvs IH]; intros acc H; [rewrite app_nil_r; reflexivity|]. cbn [fold_left fst snd].
  rewrite od_set_fresh.
  - rewrite IH; [rewrite <- app_assoc; reflexivity|]. rewrite <- app_assoc. exact H.
  - rewrite map_app in H. apply NoDup_remove_2 in H. intro Hin. apply H. apply in_or_app. left. exact Hin.
Qed.

Lemma od_of_pairs_nodup kvs : NoDup (map fst kvs) -> od_of_pairs kvs = kvs.
Proof. intro H. unfold od_of_pairs. apply (od_of_pairs_gen kvs []). exact H. Qed.

(* a value in canonical form: number tokens readable, and no dictionary inside it repeats a key *)
Definition val_ok (v : jv) : Prop := wf v /\ od_norm v = v.

Definition field_ok (f : @fieldc jv) : Prop := forall kv, In kv f -> val_ok (snd kv).
Definition dataset_ok (d : @dataset jv) : Prop :=
  NoDup (map fst d) /\ forall nf, In nf d -> field_ok (snd nf).

Lemma dump_field_keys (f : @fieldc jv) :
  map fst (dump_field f) =
  filter (fun k => match klookup k f with Some _ => true | None => false end) gen_standard_field_constraints.
Proof.
  unfold dump_field. induction gen_standard_field_constraints as [|k ks IH]; [reflexivity|].
  cbn [flat_map filter]. rewrite map_app, IH. destruct (klookup k f); reflexivity.
Qed.

Lemma dump_field_ok (f : @fieldc jv) : field_ok f -> field_ok (dump_field f).
Proof. intros H [k v] Hin. apply (H (k, v)), klookup_In, (in_dump_field f (k, v) Hin). Qed.

Lemma obj_ok (kvs : list (str * jv)) : NoDup (map fst kvs) -> (forall kv, In kv kvs -> val_ok (snd kv)) -> val_ok (JObj kvs).
Proof.
  intros Hn Hv. split.
  - apply wf_obj, Forall_forall. intros kv Hkv. apply (Hv kv Hkv).
  - cbn [od_norm]. rewrite (map_ext_in _ (fun kv => kv)).
    + rewrite map_id, od_of_pairs_nodup by exact Hn. reflexivity.
    + intros [k v] Hkv. f_equal. apply (Hv (k, v) Hkv).
Qed.

Lemma json_of_dataset_ok md d : dataset_ok d -> match md with Some m => val_ok m | None => True end ->
  val_ok (json_of_dataset md (dump d)).
Proof.
  intros [Hn Hf] Hm. unfold json_of_dataset.
  assert (Hfields : val_ok (JObj (map (fun nf => (fst nf, JObj (snd nf))) (dump d)))).
  { unfold dump. rewrite map_map. apply obj_ok.
    - rewrite map_map. exact Hn.
    - intros kv Hkv. apply in_map_iff in Hkv as [nf [<- Hin]]. cbn [snd].
      apply obj_ok; [rewrite dump_field_keys; apply NoDup_filter, standard_NoDup|]. apply dump_field_ok, (Hf nf Hin). }
  destruct md as [m|]; (apply obj_ok; [apply nodupb_NoDup; reflexivity|]).
  - intros kv [<-|[<-|[]]]; assumption.
  - intros kv [<-|[]]. exact Hfields.
Qed.

Lemma lookup_fields (md : option jv) v :
  klookup s_fields ((match md with Some m => [(s_meta, m)] | None => [] end) ++ [(s_fields, v)]) = Some v.
Proof. destruct md; reflexivity. Qed.

Lemma dataset_of_json_of md d : dataset_of_json (json_of_dataset md d) = Some d.
Proof.
  unfold dataset_of_json, json_of_dataset. rewrite lookup_fields, map_map.
  rewrite (map_ext _ (fun nf => nf)) by (intros []; reflexivity). rewrite map_id. reflexivity.
Qed.
