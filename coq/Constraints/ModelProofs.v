(* Proofs about the constraints model: each verifier equals the documented meaning (C02),
   discovery is tight (C07) and closed under verification (C01). *)
From Coq Require Import ZArith List Bool Lia.
From Tdda Require Import Base.ListFacts Base.Str Base.Sort Base.SortProofs Constraints.Model.
Import ListNotations.
Open Scope Z_scope.

(* the members of a singleton-or-empty list guarded by a condition: the shape of every discovery rule *)
Lemma in_if_opt {A B} (g : bool) (o : option A) (f : A -> B) k :
  In k (if g then match o with Some x => [f x] | None => [] end else []) ->
  g = true /\ exists x, o = Some x /\ k = f x.
Proof. destruct g; [|intros []]. destruct o; [|intros []]. intros [<-|[]]. eauto. Qed.

Lemma if_one_eq {B} (g : bool) (y : B) : (if g then [y] else []) = [y] <-> g = true.
Proof. destruct g; split; intro; (reflexivity || discriminate). Qed.

Lemma in_if_one {B} (g : bool) (y k : B) : In k (if g then [y] else []) -> g = true /\ k = y.
Proof. destruct g; [|intros []]. intros [<-|[]]. auto. Qed.

(* An extremum of a list, and how a fold of a selector finds one.  [sel a b] is one of its arguments and lies
   below both; [P] is the class within which the order is total (a coarse type for values, everything for Z). *)
Section Extremum.
Context {A : Type} (le : A -> A -> Prop).

Definition least (m : A) (l : list A) : Prop := In m l /\ forall x, In x l -> le m x.

Definition least_opt (o : option A) (l : list A) : Prop :=
  match o with None => l = [] | Some m => least m l end.

Lemma least_forall (Q : A -> Prop) m l : least m l -> (forall a b, Q a -> le a b -> Q b) ->
  (Q m <-> forall x, In x l -> Q x).
Proof. intros [Hin Hle] Hup. split; [intros Hm x Hx; exact (Hup m x Hm (Hle x Hx))|intro H; exact (H m Hin)]. Qed.

Lemma least_map {B} (f : B -> A) m l : least m (map f l) ->
  (exists v, In v l /\ f v = m) /\ forall v, In v l -> le m (f v).
Proof.
  intros [Hin Hle]. apply in_map_iff in Hin as [v [E Hv]]. split; [eauto|].
  intros w Hw. apply Hle, in_map, Hw.
Qed.

Lemma least_opt_forall (Q : A -> Prop) o l : least_opt o l -> (forall a b, Q a -> le a b -> Q b) ->
  (match o with None => True | Some m => Q m end <-> forall x, In x l -> Q x).
Proof.
  destruct o as [m|]; [apply least_forall|]. intros -> _. split; [intros _ x []|trivial].
Qed.

Context (P : A -> Prop) (sel : A -> A -> A).
Hypothesis le_refl : forall a, le a a.
Hypothesis le_trans : forall a b c, le a b -> le b c -> le a c.
Hypothesis sel_cases : forall a b, sel a b = a \/ sel a b = b.
Hypothesis sel_le : forall a b, P a -> P b -> le (sel a b) a /\ le (sel a b) b.

Lemma fold_sel_least l : forall x0, P x0 -> Forall P l -> least (fold_left sel l x0) (x0 :: l).
Proof.
  induction l as [|y l IH]; intros x0 H0 Hl; cbn [fold_left].
  - split; [left; reflexivity|]. intros x [<-|[]]. apply le_refl.
  - inversion Hl as [|? ? Hy Hl']; subst. destruct (sel_le x0 y H0 Hy) as [L0 Ly].
    assert (Hs : P (sel x0 y)) by (destruct (sel_cases x0 y) as [->| ->]; assumption).
    destruct (IH _ Hs Hl') as [Hin Hle]. split.
    + destruct Hin as [Hin|Hin]; [|right; right; exact Hin]. rewrite <- Hin.
      destruct (sel_cases x0 y) as [->| ->]; [left|right; left]; reflexivity.
    + pose proof (Hle _ (or_introl eq_refl)) as Hm.
      intros x [<-|[<-|Hx]]; [exact (le_trans _ _ _ Hm L0)|exact (le_trans _ _ _ Hm Ly)|].
      apply Hle. right. exact Hx.
Qed.
End Extremum.

Lemma vleb_refl v : vleb v v = true.
Proof. destruct v; simpl; auto using Z.leb_refl, str_leb_refl. Qed.

Lemma vleb_coarse u v : vleb u v = true -> coarse_of u = coarse_of v.
Proof. destruct u, v; intro H; try discriminate; reflexivity. Qed.

Lemma vleb_total u v : coarse_of u = coarse_of v -> vleb u v = true \/ vleb v u = true.
Proof.
  destruct u, v; simpl; intro H; try discriminate; auto.
  - destruct (Z.leb_spec k k0); auto. right. apply Z.leb_le. lia.
  - apply str_leb_total.
  - destruct (Z.leb_spec t t0); auto. right. apply Z.leb_le. lia.
Qed.

Lemma vleb_trans u v w : vleb u v = true -> vleb v w = true -> vleb u w = true.
Proof.
  destruct u, v; try discriminate; destruct w; try discriminate; try reflexivity; intros H1 H2.
  - apply Z.leb_le. apply Z.leb_le in H1, H2. exact (Z.le_trans _ _ _ H1 H2).
  - exact (str_leb_trans _ _ _ H1 H2).
  - apply Z.leb_le. apply Z.leb_le in H1, H2. exact (Z.le_trans _ _ _ H1 H2).
Qed.

Lemma vltb_leb_trans u v w : vltb u v = true -> vleb v w = true -> vltb u w = true.
Proof.
  intros H1 H2. apply andb_true_iff in H1 as [H1 H3]. apply negb_true_iff in H3.
  apply andb_true_iff. split; [exact (vleb_trans _ _ _ H1 H2)|]. apply negb_true_iff.
  destruct (vleb w u) eqn:E; [|reflexivity]. rewrite (vleb_trans _ _ _ H2 E) in H3. discriminate.
Qed.

Lemma vleb_ltb_trans u v w : vleb u v = true -> vltb v w = true -> vltb u w = true.
Proof.
  intros H1 H2. apply andb_true_iff in H2 as [H2 H3]. apply negb_true_iff in H3.
  apply andb_true_iff. split; [exact (vleb_trans _ _ _ H1 H2)|]. apply negb_true_iff.
  destruct (vleb w u) eqn:E; [|reflexivity]. rewrite (vleb_trans _ _ _ E H1) in H3. discriminate.
Qed.

Lemma veqb_refl v : veqb v v = true.
Proof. unfold veqb. rewrite vleb_refl. reflexivity. Qed.

Lemma coarse_eqb_eq a b : coarse_eqb a b = true <-> a = b.
Proof. destruct a, b; split; intro H; try discriminate; reflexivity. Qed.

Lemma coarse_eqb_refl k : coarse_eqb k k = true.
Proof. destruct k; reflexivity. Qed.

Lemma ctype_eqb_refl t : ctype_eqb t t = true.
Proof. destruct t; reflexivity. Qed.

Definition vle (a b : value) : Prop := vleb a b = true.
Definition vge (a b : value) : Prop := vleb b a = true.

Definition homogeneous (l : list value) : Prop := forall u v, In u l -> In v l -> coarse_of u = coarse_of v.

Definition well_formed (c : column) : Prop := homogeneous (non_nulls c).

(* within one coarse type the order is total, so vmin / vmax select an argument below / above both *)
Lemma col_min_least c : well_formed c -> least_opt vle (col_min c) (non_nulls c).
Proof.
  unfold col_min, well_formed. destruct (non_nulls c) as [|v0 l]; [reflexivity|]. intro Hh.
  apply (fold_sel_least vle (fun v => coarse_of v = coarse_of v0) vmin);
    [exact vleb_refl|exact vleb_trans| | |reflexivity|apply Forall_forall; intros x Hx; apply Hh; simpl; auto];
    intros a b; unfold vmin, vle; destruct (vleb a b) eqn:E; auto.
  - auto using vleb_refl.
  - intros Ha Hb. split; [|apply vleb_refl]. destruct (vleb_total a b); congruence.
Qed.

Lemma col_max_greatest c : well_formed c -> least_opt vge (col_max c) (non_nulls c).
Proof.
  unfold col_max, well_formed. destruct (non_nulls c) as [|v0 l]; [reflexivity|]. intro Hh.
  apply (fold_sel_least vge (fun v => coarse_of v = coarse_of v0) vmax);
    [exact vleb_refl|exact (fun a b c H1 H2 => vleb_trans _ _ _ H2 H1)| | |reflexivity
    |apply Forall_forall; intros x Hx; apply Hh; simpl; auto];
    intros a b; unfold vmax, vge; destruct (vleb a b) eqn:E; auto.
  - auto using vleb_refl.
  - intros Ha Hb. split; [apply vleb_refl|]. destruct (vleb_total a b); congruence.
Qed.

Lemma zmin_list_least l : least_opt Z.le (zmin_list l) l.
Proof.
  destruct l as [|x l]; [reflexivity|].
  apply (fold_sel_least Z.le (fun _ => True) Z.min); try (intros; lia). apply Forall_forall. trivial.
Qed.

Lemma zmax_list_greatest l : least_opt (fun a b => b <= a) (zmax_list l) l.
Proof.
  destruct l as [|x l]; [reflexivity|].
  apply (fold_sel_least (fun a b => b <= a) (fun _ => True) Z.max); try (intros; lia). apply Forall_forall. trivial.
Qed.

(* the documented meaning for one non-null value *)
Definition sat_min (b : bound) (v : value) : bool :=
  match b_value b, b_prec b with
  | VDate _, POpen => vltb (b_value b) v
  | VDate _, _ => vleb (b_value b) v
  | _, PClosed => vleb (b_value b) v
  | _, POpen => vltb (b_value b) v
  | _, PFuzzy => vleb (b_value b) v || vleb (b_fuzzed b) v
  end.
Definition sat_max (b : bound) (v : value) : bool :=
  match b_value b, b_prec b with
  | VDate _, POpen => vltb v (b_value b)
  | VDate _, _ => vleb v (b_value b)
  | _, PClosed => vleb v (b_value b)
  | _, POpen => vltb v (b_value b)
  | _, PFuzzy => vleb v (b_value b) || vleb v (b_fuzzed b)
  end.

Lemma orb_mono (a a' b b' : bool) : (a = true -> a' = true) -> (b = true -> b' = true) ->
  a || b = true -> a' || b' = true.
Proof. intros Ha Hb H. apply orb_true_iff in H as [H|H]; apply orb_true_iff; auto. Qed.

Lemma sat_min_mono b m v : sat_min b m = true -> vleb m v = true -> sat_min b v = true.
Proof.
  unfold sat_min. intros H Hle.
  destruct (b_value b), (b_prec b); revert H;
    first [apply orb_mono; intro H|intro H]; eauto using vleb_trans, vltb_leb_trans.
Qed.

Lemma sat_max_mono b m v : sat_max b m = true -> vleb v m = true -> sat_max b v = true.
Proof.
  unfold sat_max. intros H Hle.
  destruct (b_value b), (b_prec b); revert H;
    first [apply orb_mono; intro H|intro H]; eauto using vleb_trans, vleb_ltb_trans.
Qed.

Lemma sat_min_exact m : sat_min (exact_bound m) m = true.
Proof. unfold sat_min, exact_bound. simpl. destruct m; rewrite ?vleb_refl; reflexivity. Qed.
Lemma sat_max_exact m : sat_max (exact_bound m) m = true.
Proof. unfold sat_max, exact_bound. simpl. destruct m; rewrite ?vleb_refl; reflexivity. Qed.

Lemma verify_min_unfold p c b :
  verify p (Some c) (CMin (Some b)) =
  match col_min c with
  | None => true
  | Some m => coarse_eqb (coarse_of m) (coarse_of (b_value b)) && sat_min b m
  end.
Proof. cbn [verify]. destruct (col_min c) as [m|]; [|reflexivity]. destruct (coarse_eqb _ _); reflexivity. Qed.

Lemma verify_max_unfold p c b :
  verify p (Some c) (CMax (Some b)) =
  match col_max c with
  | None => true
  | Some m => coarse_eqb (coarse_of m) (coarse_of (b_value b)) && sat_max b m
  end.
Proof. cbn [verify]. destruct (col_max c) as [m|]; [|reflexivity]. destruct (coarse_eqb _ _); reflexivity. Qed.

(* min: satisfied iff every non-null value has the bound's coarse type and meets it.  Both parts are
   preserved upwards, so it is enough to look at the minimum. *)
Theorem verify_min_spec_proof p c b : well_formed c ->
  (verify p (Some c) (CMin (Some b)) = true <->
   forall v, In v (non_nulls c) -> coarse_of v = coarse_of (b_value b) /\ sat_min b v = true).
Proof.
  intro Hw. rewrite verify_min_unfold.
  eapply iff_trans; [|apply (least_opt_forall vle (fun v => coarse_of v = coarse_of (b_value b) /\ sat_min b v = true)
                                _ _ (col_min_least c Hw))].
  - destruct (col_min c); [|split; auto]. eapply iff_trans; [apply andb_true_iff|].
    apply and_iff_compat_r, coarse_eqb_eq.
  - intros u v [Hc Hs] Hle. rewrite <- (vleb_coarse u v Hle). eauto using sat_min_mono.
Qed.

Theorem verify_max_spec_proof p c b : well_formed c ->
  (verify p (Some c) (CMax (Some b)) = true <->
   forall v, In v (non_nulls c) -> coarse_of v = coarse_of (b_value b) /\ sat_max b v = true).
Proof.
  intro Hw. rewrite verify_max_unfold.
  eapply iff_trans; [|apply (least_opt_forall vge (fun v => coarse_of v = coarse_of (b_value b) /\ sat_max b v = true)
                                _ _ (col_max_greatest c Hw))].
  - destruct (col_max c); [|split; auto]. eapply iff_trans; [apply andb_true_iff|].
    apply and_iff_compat_r, coarse_eqb_eq.
  - intros u v [Hc Hs] Hle. rewrite (vleb_coarse v u Hle). eauto using sat_max_mono.
Qed.

Local Arguments vleb : simpl never.
Local Arguments vltb : simpl never.
Local Arguments veqb : simpl never.

Definition sat_sign (s : sign) (v : value) : bool :=
  match s with
  | SNull => false
  | SPositive => vltb (VNum 0) v
  | SNonNegative => vleb (VNum 0) v
  | SZero => veqb v (VNum 0)
  | SNonPositive => vleb v (VNum 0)
  | SNegative => vltb v (VNum 0)
  end.

Definition numeric (c : column) : Prop := forall v, In v (non_nulls c) -> coarse_of v = KNumber.

(* what the verifier computes from the minimum and the maximum of a numeric column *)
Definition sign_ok (s : sign) (m M : value) : bool :=
  match s with
  | SNull => false
  | SPositive => vltb (VNum 0) m
  | SNonNegative => vleb (VNum 0) m
  | SZero => veqb m (VNum 0) && veqb M (VNum 0)
  | SNonPositive => vleb M (VNum 0)
  | SNegative => vltb M (VNum 0)
  end.

Lemma verify_sign_unfold p c s :
  verify p (Some c) (CSign (Some s)) =
  match col_min c, col_max c with
  | Some m, Some M => match coarse_of m with KNumber => sign_ok s m M | _ => false end
  | _, _ => true
  end.
Proof. cbn [verify]. destruct (col_min c), (col_max c); reflexivity. Qed.

(* each class is preserved upwards (so decided at the minimum), downwards (at the maximum), or both (zero) *)
Lemma sign_ok_iff s m M l : least vle m l -> least vge M l ->
  (sign_ok s m M = true <-> forall v, In v l -> sat_sign s v = true).
Proof.
  intros Hm HM. destruct s; cbn [sign_ok sat_sign].
  - apply (least_forall vle (fun v => vltb (VNum 0) v = true) _ _ Hm). apply vltb_leb_trans.
  - apply (least_forall vle (fun v => vleb (VNum 0) v = true) _ _ Hm). apply vleb_trans.
  - unfold veqb. destruct Hm as [Hm Hlo], HM as [HM Hhi]. split.
    + intros H v Hv. apply andb_true_iff in H as [H1 H2].
      apply andb_true_iff in H1 as [_ H1]. apply andb_true_iff in H2 as [H2 _].
      rewrite (vleb_trans _ _ _ (Hhi v Hv) H2), (vleb_trans _ _ _ H1 (Hlo v Hv)). reflexivity.
    + intro H. rewrite (H m Hm), (H M HM). reflexivity.
  - apply (least_forall vge (fun v => vleb v (VNum 0) = true) _ _ HM). intros a b Ha Hb. exact (vleb_trans _ _ _ Hb Ha).
  - apply (least_forall vge (fun v => vltb v (VNum 0) = true) _ _ HM). intros a b Ha Hb. exact (vleb_ltb_trans _ _ _ Hb Ha).
  - apply (least_forall vle (fun _ => false = true) _ _ Hm). trivial.
Qed.

Lemma sign_ok_false s m M l : In m l -> In M l -> sign_ok s m M = false ->
  exists v, In v l /\ sat_sign s v = false.
Proof.
  intros Hm HM. destruct s; intro H.
  - exists m. auto.
  - exists m. auto.
  - apply andb_false_iff in H as [H|H]; [exists m|exists M]; auto.
  - exists M. auto.
  - exists M. auto.
  - exists m. auto.
Qed.

Lemma col_extremes c m M : well_formed c -> col_min c = Some m -> col_max c = Some M ->
  least vle m (non_nulls c) /\ least vge M (non_nulls c).
Proof.
  intros Hw Em EM. pose proof (col_min_least c Hw) as Hm. pose proof (col_max_greatest c Hw) as HM.
  rewrite Em in Hm. rewrite EM in HM. split; assumption.
Qed.

Theorem verify_sign_spec_proof p c s : well_formed c -> numeric c ->
  (verify p (Some c) (CSign (Some s)) = true <-> forall v, In v (non_nulls c) -> sat_sign s v = true).
Proof.
  intros Hw Hn. rewrite verify_sign_unfold.
  pose proof (col_min_least c Hw) as Hm. pose proof (col_max_greatest c Hw) as HM.
  unfold numeric, col_min, col_max in *. destruct (non_nulls c) as [|v0 l].
  - split; [intros _ v []|reflexivity].
  - rewrite (Hn _ (proj1 Hm)). apply sign_ok_iff; assumption.
Qed.

Theorem verify_min_length_spec_proof p c n : c_type c = TString ->
  (verify p (Some c) (CMinLen (Some n)) = true <-> forall v, In v (non_nulls c) -> n <= str_len v).
Proof.
  intro Ht. cbn [verify]. rewrite Ht.
  eapply iff_trans; [|apply (in_map_forall str_len (fun x => n <= x))].
  eapply iff_trans; [|apply (least_opt_forall Z.le (fun x => n <= x) _ _ (zmin_list_least _)); intros; lia].
  destruct (zmin_list _); [apply Z.leb_le|split; auto].
Qed.

Theorem verify_max_length_spec_proof p c n : c_type c = TString ->
  (verify p (Some c) (CMaxLen (Some n)) = true <-> forall v, In v (non_nulls c) -> str_len v <= n).
Proof.
  intro Ht. cbn [verify]. rewrite Ht.
  eapply iff_trans; [|apply (in_map_forall str_len (fun x => x <= n))].
  eapply iff_trans; [|apply (least_opt_forall _ (fun x => x <= n) _ _ (zmax_list_greatest _)); intros; lia].
  destruct (zmax_list _); [apply Z.leb_le|split; auto].
Qed.

Theorem length_on_non_string_fails_proof p c n : c_type c <> TString ->
  verify p (Some c) (CMinLen (Some n)) = false /\ verify p (Some c) (CMaxLen (Some n)) = false.
Proof. intro H. simpl. destruct (c_type c); try congruence; auto. Qed.

Theorem verify_max_nulls_spec_proof p c n :
  verify p (Some c) (CMaxNulls (Some n)) = true <-> null_count c <= n.
Proof. apply Z.leb_le. Qed.

Definition null_valued (k : constr) : bool :=
  match k with
  | CType None | CMin None | CMax None | CMinLen None | CMaxLen None | CSign None | CMaxNulls None
  | CNoDup None | CAllowed None | CRex None => true
  | _ => false
  end.

Definition type_meaning (strict : bool) (c : column) (ts : list ctype) : bool :=
  existsb (ctype_eqb (c_type c)) ts ||
  (negb strict &&
   ((ctype_eqb (c_type c) TReal && (existsb (ctype_eqb TInt) ts || existsb (ctype_eqb TBool) ts) &&
     forallb is_whole (non_nulls c)) ||
    (ctype_eqb (c_type c) TString && existsb (ctype_eqb TBool) ts &&
     match non_nulls c with [] => true | _ => false end))).

Lemma filter_none_forallb {T} (f : T -> bool) l :
  Z.eqb (Z.of_nat (length (filter (fun v => negb (f v)) l))) 0 = forallb f l.
Proof.
  induction l as [|x l IH]; [reflexivity|]. cbn [filter forallb].
  destruct (f x); cbn [negb andb]; [exact IH|]. reflexivity.
Qed.

Theorem verify_type_spec_proof p c ts :
  verify p (Some c) (CType (Some ts)) = type_meaning (p_strict p) c ts.
Proof.
  simpl. unfold type_meaning, non_integer_count. rewrite filter_none_forallb.
  destruct (p_strict p); simpl.
  - rewrite orb_false_r. reflexivity.
  - destruct (existsb (ctype_eqb (c_type c)) ts) eqn:E; simpl; [reflexivity|].
    destruct (c_type c); simpl in *; rewrite ?andb_false_r, ?orb_false_r; simpl; try reflexivity.
    + destruct (existsb (ctype_eqb TInt) ts || existsb (ctype_eqb TBool) ts); simpl;
        rewrite ?orb_false_r; reflexivity.
    + destruct (existsb (ctype_eqb TBool) ts); reflexivity.
Qed.

Inductive NoDupV : list value -> Prop :=
| NDV_nil : NoDupV []
| NDV_cons x l : (forall y, In y l -> veqb x y = false) -> NoDupV l -> NoDupV (x :: l).

Lemma vdedup_length_le l : (length (vdedup l) <= length l)%nat.
Proof.
  induction l as [|x l IH]; simpl; [lia|].
  pose proof (filter_length_le (fun y => negb (veqb x y)) (vdedup l)). lia.
Qed.

Lemma NoDupV_vdedup l : NoDupV l -> vdedup l = l.
Proof.
  induction 1 as [|x l Hx Hnd IH]; simpl; [reflexivity|]. rewrite IH. f_equal.
  apply filter_all_true. intros y Hy. rewrite (Hx y Hy). reflexivity.
Qed.

Lemma vdedup_length_NoDupV l : length (vdedup l) = length l -> NoDupV l.
Proof.
  induction l as [|x l IH]; simpl; intro H; [constructor|].
  pose proof (filter_length_le (fun y => negb (veqb x y)) (vdedup l)) as H1.
  pose proof (vdedup_length_le l) as H2.
  assert (Hl : length (vdedup l) = length l) by lia.
  specialize (IH Hl). constructor; [|exact IH].
  intros y Hy. rewrite <- (NoDupV_vdedup l IH) in Hy.
  assert (Hf : length (filter (fun y => negb (veqb x y)) (vdedup l)) = length (vdedup l)) by lia.
  pose proof (filter_length_eq_all _ _ Hf y Hy) as Hb. apply negb_true_iff in Hb. exact Hb.
Qed.

Lemma nunique_all_iff c : nunique c = non_null_count c <-> NoDupV (non_nulls c).
Proof.
  unfold nunique, non_null_count. split.
  - intro H. apply vdedup_length_NoDupV, Nat2Z.inj, H.
  - intro H. rewrite (NoDupV_vdedup _ H). reflexivity.
Qed.

Theorem verify_no_duplicates_spec_proof p c :
  verify p (Some c) (CNoDup (Some true)) = true <-> NoDupV (non_nulls c).
Proof. eapply iff_trans; [apply Z.eqb_eq|apply nunique_all_iff]. Qed.

Lemma NoDupV_app_last l v : NoDupV (l ++ [v]) -> ~ In v l.
Proof.
  induction l as [|x l IH]; intros Hnd Hin; [destruct Hin|].
  inversion Hnd as [|? ? Hx Hl]. destruct Hin as [->|Hin]; [|exact (IH Hl Hin)].
  specialize (Hx v (in_or_app l [v] v (or_intror (or_introl eq_refl)))). rewrite veqb_refl in Hx. discriminate.
Qed.

Theorem verify_rex_spec_proof p c oks :
  verify p (Some c) (CRex (Some oks)) = (ctype_eqb (c_type c) TString && forallb (fun b => b) oks).
Proof. simpl. destruct (ctype_eqb (c_type c) TString); reflexivity. Qed.

Lemma ltb_2_cases n : 0 <= n -> (n <? 2) = (n =? 0) || (n =? 1).
Proof. intro H. destruct (Z.ltb_spec n 2), (Z.eqb_spec n 0), (Z.eqb_spec n 1); lia. Qed.

(* no_duplicates: exactly when a non-real field has more than one non-null value, all distinct *)
Theorem disc_no_duplicates_iff_proof c :
  d_no_duplicates c = [CNoDup (Some true)] <->
  has_rows c = true /\ counts_distinct (c_type c) = true /\
  (1 < Z.of_nat (length (non_nulls c))) /\ NoDupV (non_nulls c).
Proof.
  rewrite <- nunique_all_iff. unfold d_no_duplicates, nunique_used, non_null_count.
  rewrite if_one_eq, !andb_true_iff, Z.eqb_eq, Z.ltb_lt, negb_true_iff.
  destruct (counts_distinct (c_type c)) eqn:Et.
  - assert (ctype_eqb (c_type c) TReal = false) by (destruct (c_type c); (reflexivity || discriminate)).
    split; [intros [[[H1 H2] H3] _]|intros (H1 & _ & H3 & H2)]; repeat split; auto; lia.
  - split; [intros [[_ H] _]; lia|intros (_ & H & _); discriminate].
Qed.

(* sign: the reported class holds for every value and no stronger class does *)
Definition stronger (a b : sign) : bool :=
  match a, b with
  | SPositive, SNonNegative | SZero, SNonNegative | SZero, SNonPositive | SNegative, SNonPositive => true
  | _, _ => false
  end.

Lemma discover_sign_inv m M s : discover_sign m M = Some s ->
  sign_ok s m M = true /\ forall s', stronger s' s = true -> sign_ok s' m M = false.
Proof.
  unfold discover_sign. intro H.
  destruct (veqb m (VNum 0) && veqb M (VNum 0)) eqn:E0;
    [|destruct (vleb (VNum 0) m) eqn:E1;
      [destruct (vltb (VNum 0) m) eqn:E2
      |destruct (vleb M (VNum 0)) eqn:E3; [destruct (vltb M (VNum 0)) eqn:E4|discriminate]]];
    injection H as <-; (split; [assumption|intros [] Hs; try discriminate Hs; assumption]).
Qed.

Lemma d_sign_inv c k : In k (d_sign c) ->
  exists m M s, k = CSign (Some s) /\ col_min c = Some m /\ col_max c = Some M /\
                discover_sign m M = Some s /\ is_str c = false /\ ctype_eqb (c_type c) TDate = false.
Proof.
  unfold d_sign. destruct (has_rows c), (is_str c), (ctype_eqb (c_type c) TDate); try (intros []; fail).
  destruct (col_min c) as [m|]; [|intros []]. destruct (col_max c) as [M|]; [|intros []].
  destruct (discover_sign m M) as [s|] eqn:E; [|intros []]. intros [<-|[]]. exists m, M, s. auto 7.
Qed.

Definition well_typed (c : column) : Prop :=
  well_formed c /\
  (c_type c = TBool \/ c_type c = TInt \/ c_type c = TReal -> numeric c).

Lemma closure_sign p c k : well_typed c -> c_type c <> TOther -> In k (d_sign c) -> verify p (Some c) k = true.
Proof.
  intros [Hw Hn] Ho Hin. destruct (d_sign_inv _ _ Hin) as (m & M & s & -> & Em & EM & Es & Hs & Hd).
  assert (Hnum : numeric c).
  { apply Hn. unfold is_str in Hs. destruct (c_type c); auto; (discriminate || congruence). }
  destruct (col_extremes c m M Hw Em EM) as [[Hm _] _].
  rewrite verify_sign_unfold, Em, EM, (Hnum m Hm). apply (discover_sign_inv _ _ _ Es).
Qed.

Lemma uniques_length c : Z.of_nat (length (uniques c)) = nunique c.
Proof.
  unfold uniques, nunique. f_equal.
  rewrite <- (Permutation.Permutation_length (sort_strs_perm _)). apply map_length.
Qed.

(* Every constraint discovered from a column is satisfied by that column, under strict and
   sloppy type checking and for any epsilon (discovered bounds are met exactly).  The rex
   hypothesis is C03: every example is matched by one of the discovered expressions. *)
Theorem closure_proof p c rex ks : well_typed c ->
  (forall oks, rex = Some oks -> forallb (fun b => b) oks = true) ->
  discover c rex = Some ks ->
  forall k, In k ks -> verify p (Some c) k = true.
Proof.
  intros Hwt Hr Hd k Hin. unfold discover in Hd.
  assert (Ho : c_type c <> TOther) by (intro E; rewrite E in Hd; discriminate).
  assert (Hks : ks = [CType (Some [c_type c])] ++ d_min c ++ d_max c ++ d_min_length c ++ d_max_length c ++
                     d_sign c ++ d_max_nulls c ++ d_no_duplicates c ++ d_allowed c ++ d_rex c rex).
  { destruct (c_type c); try discriminate Hd; injection Hd as <-; reflexivity. }
  subst ks.
  repeat (apply in_app_or in Hin as [Hin|Hin]).
  - destruct Hin as [<-|[]]. rewrite verify_type_spec_proof. unfold type_meaning. cbn [existsb].
    rewrite ctype_eqb_refl. reflexivity.
  - apply in_if_opt in Hin as (_ & m & E & ->).
    rewrite verify_min_unfold, E. rewrite coarse_eqb_refl. apply sat_min_exact.
  - apply in_if_opt in Hin as (_ & m & E & ->).
    rewrite verify_max_unfold, E. rewrite coarse_eqb_refl. apply sat_max_exact.
  - apply in_if_opt in Hin as (G & m & E & ->). apply andb_true_iff in G as [_ G].
    cbn [verify]. fold (is_str c). rewrite G, E. apply Z.leb_refl.
  - apply in_if_opt in Hin as (G & m & E & ->). apply andb_true_iff in G as [_ G].
    cbn [verify]. fold (is_str c). rewrite G, E. apply Z.leb_refl.
  - apply closure_sign; assumption.
  - apply in_if_one in Hin as [_ ->]. apply Z.leb_refl.
  - apply in_if_one in Hin as [G ->]. unfold nunique_used in G.
    apply andb_true_iff in G as [G _]. apply andb_true_iff in G as [G G2]. apply andb_true_iff in G as [_ G1].
    destruct (counts_distinct (c_type c)); [exact G1|discriminate G2].
  - apply in_if_one in Hin as [_ ->]. cbn [verify]. rewrite uniques_length, Z.ltb_irrefl.
    apply forallb_forall. intros x Hx. apply mem_str_In. exact Hx.
  - apply in_if_opt in Hin as (G & oks & E & ->). cbn [verify]. fold (is_str c). rewrite G. exact (Hr oks E).
Qed.
