(* C09, dictionary level: lookup in loaded and dumped fields, what dump_field depends on, and a loaded set written and
   loaded again. *)
From Coq Require Import List Bool.
From Tdda Require Import Base.ListFacts Base.Sexp Base.Str Generated.Consts Constraints.Serialise.
Import ListNotations.

Section Proofs.
Context {V : Type}.
Notation fieldc := (@fieldc V).

Fixpoint nodupb (l : list str) : bool :=
  match l with [] => true | x :: r => negb (mem_str x r) && nodupb r end.

Lemma nodupb_NoDup l : nodupb l = true -> NoDup l.
Proof.
  induction l as [|x l IH]; cbn [nodupb]; [constructor|]. intro H. apply andb_true_iff in H as [H1 H2].
  constructor; [|auto]. intro Hin. apply mem_str_In in Hin. rewrite Hin in H1. discriminate.
Qed.

(* the table of kinds is fixed: checked by evaluation *)
Lemma standard_NoDup : NoDup gen_standard_field_constraints.
Proof. apply nodupb_NoDup. reflexivity. Qed.

Lemma klookup_In (f : fieldc) k v : klookup k f = Some v -> In (k, v) f.
Proof.
  induction f as [|[k' v'] f IH]; [discriminate|]. cbn [klookup]. destruct (str_eqb k k') eqn:E.
  - apply str_eqb_eq in E. subst. intro H. injection H as ->. left. reflexivity.
  - intro H. right. apply IH. exact H.
Qed.

Lemma klookup_load k (f : fieldc) : known k = true -> klookup k (load_field f) = klookup k f.
Proof.
  intro Hk. induction f as [|[k' v] f IH]; [reflexivity|]. cbn [load_field filter fst].
  destruct (known k') eqn:E; cbn [klookup].
  - destruct (str_eqb k k'); [reflexivity|exact IH].
  - destruct (str_eqb k k') eqn:Ek; [|exact IH]. apply str_eqb_eq in Ek. congruence.
Qed.

Lemma in_dump_field (f : fieldc) kv : In kv (dump_field f) -> known (fst kv) = true /\ klookup (fst kv) f = Some (snd kv).
Proof.
  unfold dump_field. rewrite in_flat_map. intros [k [Hk Hin]].
  destruct (klookup k f) eqn:E; [|destruct Hin]. destruct Hin as [<-|[]]. split; [apply mem_str_In, Hk|exact E].
Qed.

Lemma load_dump_id (f : fieldc) : load_field (dump_field f) = dump_field f.
Proof.
  unfold load_field. apply filter_all_true. intros kv Hin. apply (in_dump_field f kv Hin).
Qed.

(* lookup in a dumped field: the dump lists each standard key once *)
Lemma klookup_flat_map (f : fieldc) keys k : NoDup keys ->
  klookup k (flat_map (fun k0 => match klookup k0 f with Some v => [(k0, v)] | None => [] end) keys) =
  if mem_str k keys then klookup k f else None.
Proof.
  induction keys as [|k0 keys IH]; intro Hnd; [reflexivity|]. inversion Hnd; subst.
  cbn [flat_map mem_str]. destruct (str_eqb k k0) eqn:E.
  - apply str_eqb_eq in E. subst k0.
    destruct (klookup k f) as [v|] eqn:El; cbn [app klookup].
    + rewrite str_eqb_refl. reflexivity.
    + rewrite IH by assumption.
      destruct (mem_str k keys) eqn:Em; [|reflexivity]. apply mem_str_In in Em. contradiction.
  - destruct (klookup k0 f) as [v|]; cbn [app klookup]; [rewrite E|]; apply IH; assumption.
Qed.

Lemma klookup_dump k (f : fieldc) : klookup k (dump_field f) = if known k then klookup k f else None.
Proof. unfold dump_field, known. apply klookup_flat_map. apply standard_NoDup. Qed.

Lemma dump_field_ext (f g : fieldc) : (forall k, known k = true -> klookup k f = klookup k g) ->
  dump_field f = dump_field g.
Proof.
  intro H. apply flat_map_ext_in. intros k Hk. rewrite H; [reflexivity|]. apply mem_str_In. exact Hk.
Qed.

Lemma dump_field_idem (f : fieldc) : dump_field (dump_field f) = dump_field f.
Proof. apply dump_field_ext. intros k Hk. rewrite klookup_dump, Hk. reflexivity. Qed.

Lemma dump_idem (d : @dataset V) : dump (dump d) = dump d.
Proof. unfold dump. rewrite map_map. apply map_ext. intro nf. cbn [fst snd]. rewrite dump_field_idem. reflexivity. Qed.

(* a loaded set has no empty and no unknown entries *)
Lemma load_field_nonempty_dump (f : fieldc) : load_field f <> [] -> dump_field (load_field f) <> [].
Proof.
  intro H. destruct (load_field f) as [|[k v] t] eqn:E; [congruence|].
  assert (Hk : known k = true).
  { assert (Hin : In (k, v) (load_field f)) by (rewrite E; left; reflexivity).
    unfold load_field in Hin. apply filter_In in Hin as [_ Hk]. exact Hk. }
  assert (Hl : klookup k ((k, v) :: t) = Some v) by (cbn [klookup]; rewrite str_eqb_refl; reflexivity).
  pose proof (klookup_dump k ((k, v) :: t)) as Hd. rewrite Hk, Hl in Hd.
  intro E0. rewrite E0 in Hd. discriminate.
Qed.

Lemma in_load (d : @dataset V) nf : In nf (load d) -> exists f, snd nf = load_field f /\ load_field f <> [].
Proof.
  unfold load. intro H. apply filter_In in H as [H Hne]. apply in_map_iff in H as (nf0 & <- & _).
  exists (snd nf0). split; [reflexivity|]. destruct (load_field (snd nf0)); discriminate.
Qed.

Lemma load_dump_load (d0 : @dataset V) : load (dump (load d0)) = dump (load d0).
Proof.
  unfold load at 1, dump. rewrite map_map. cbn [fst snd].
  rewrite (map_ext _ (fun nf => (fst nf, dump_field (snd nf)))) by (intro; rewrite load_dump_id; reflexivity).
  apply filter_all_true. intros nf Hin. apply in_map_iff in Hin as (nf0 & <- & Hin). cbn [snd].
  destruct (in_load _ _ Hin) as (f & -> & Hne). apply load_field_nonempty_dump in Hne. destruct (dump_field (load_field f)); congruence.
Qed.

End Proofs.
