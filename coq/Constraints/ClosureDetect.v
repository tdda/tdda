(* Dataset level: the pass and failure totals of a whole verification are the counts of its verdicts (C02);
   verification and detection with constraints discovered from the same data count no failure and flag no
   record (C01); detection and verification agree on whether anything failed (C06). *)
From Coq Require Import ZArith List Lia.
From Tdda Require Import Base.ListFacts Constraints.Model Constraints.ModelProofs Constraints.Detect Constraints.DetectProofs.
Import ListNotations.
Open Scope Z_scope.

Lemma count_true_cons b l : count_true (b :: l) = (if b then 1 else 0) + count_true l.
Proof. unfold count_true. destruct b; cbn [filter length]; lia. Qed.
Lemma count_false_cons b l : count_false (b :: l) = (if b then 0 else 1) + count_false l.
Proof. unfold count_false. destruct b; cbn [filter length negb]; lia. Qed.

Lemma count_true_app a b : count_true (a ++ b) = count_true a + count_true b.
Proof. unfold count_true. rewrite filter_app, app_length. lia. Qed.
Lemma count_false_app a b : count_false (a ++ b) = count_false a + count_false b.
Proof. unfold count_false. rewrite filter_app, app_length. lia. Qed.

Lemma count_true_false_length l : count_true l + count_false l = Z.of_nat (length l).
Proof.
  induction l as [|b l IH]; [reflexivity|].
  rewrite count_true_cons, count_false_cons. cbn [length]. destruct b; lia.
Qed.

Lemma count_false_nonneg l : 0 <= count_false l.
Proof. unfold count_false. lia. Qed.

Lemma count_false_zero_iff l : count_false l = 0 <-> forall b, In b l -> b = true.
Proof.
  unfold count_false. rewrite <- Nat2Z.inj_0, Nat2Z.inj_iff, length_zero_iff_nil, filter_nil_iff.
  split; intros H b Hb; apply Bool.negb_false_iff, H, Hb.
Qed.

(* verify_field and verify_dataset in closed form: both folds only append and add, so a last element
   can be split off *)
Lemma verify_field_eq p col ks : verify_field p col ks =
  {| fr_verdicts := map (verify p col) ks; fr_passes := count_true (map (verify p col) ks);
     fr_failures := count_false (map (verify p col) ks) |}.
Proof.
  induction ks as [|k ks IH] using rev_ind; [reflexivity|]. unfold verify_field in *.
  rewrite map_app, fold_left_app, IH, count_true_app, count_false_app. cbn.
  destruct (verify p col k); rewrite ?Z.add_0_r; reflexivity.
Qed.

Lemma verify_dataset_eq p fs : verify_dataset p fs =
  let rs := map (fun f => verify_field p (fst f) (snd f)) fs in
  {| v_fields := rs; v_passes := fold_right Z.add 0 (map fr_passes rs);
     v_failures := fold_right Z.add 0 (map fr_failures rs) |}.
Proof.
  induction fs as [|f fs IH] using rev_ind; [reflexivity|]. unfold verify_dataset in *.
  rewrite fold_left_app, IH. rewrite !map_app. cbn [map]. rewrite !sum_snoc. reflexivity.
Qed.

Definition verdicts (p : params) (fs : list (option column * list constr)) : list bool :=
  flat_map (fun f => map (verify p (fst f)) (snd f)) fs.

Lemma dataset_counts p fs :
  v_passes (verify_dataset p fs) = count_true (verdicts p fs) /\
  v_failures (verify_dataset p fs) = count_false (verdicts p fs).
Proof.
  rewrite verify_dataset_eq. cbn [v_passes v_failures]. unfold verdicts.
  induction fs as [|f fs [IH1 IH2]]; [split; reflexivity|].
  cbn [map fold_right flat_map]. rewrite count_true_app, count_false_app, IH1, IH2, verify_field_eq.
  split; reflexivity.
Qed.

Lemma verdicts_all_true p fs :
  (forall b, In b (verdicts p fs) -> b = true) <->
  forall f k, In f fs -> In k (snd f) -> verify p (fst f) k = true.
Proof.
  unfold verdicts. split.
  - intros H f k Hf Hk. apply H. apply in_flat_map. exists f. split; [exact Hf|]. apply in_map. exact Hk.
  - intros H b Hb. apply in_flat_map in Hb as [f [Hf Hb]]. apply in_map_iff in Hb as [k [<- Hk]]. eauto.
Qed.

Lemma verdicts_length p fs : length (verdicts p fs) = length (flat_map snd fs).
Proof.
  unfold verdicts. induction fs as [|f fs IH]; [reflexivity|].
  cbn [flat_map]. rewrite !app_length, map_length, IH. reflexivity.
Qed.

(* the overall failure count is 0 exactly when every verdict of every field (present or missing) is a pass;
   so one failing constraint anywhere makes the overall count positive *)
Theorem dataset_failures_zero_iff_proof p (fs : list (option column * list constr)) :
  v_failures (verify_dataset p fs) = 0 <->
  forall f k, In f fs -> In k (snd f) -> verify p (fst f) k = true.
Proof.
  rewrite (proj2 (dataset_counts p fs)). eapply iff_trans; [apply count_false_zero_iff|apply verdicts_all_true].
Qed.

Theorem one_failure_is_counted_proof p (fs : list (option column * list constr)) f k :
  In f fs -> In k (snd f) -> verify p (fst f) k = false -> 0 < v_failures (verify_dataset p fs).
Proof.
  intros Hf Hk Hv. pose proof (dataset_failures_zero_iff_proof p fs) as [Hz _].
  pose proof (count_false_nonneg (verdicts p fs)). rewrite <- (proj2 (dataset_counts p fs)) in H.
  assert (v_failures (verify_dataset p fs) <> 0); [|lia].
  intro E. rewrite (Hz E f k Hf Hk) in Hv. discriminate.
Qed.

Lemma dataset_all_pass p fs : (forall f k, In f fs -> In k (snd f) -> verify p (fst f) k = true) ->
  let v := verify_dataset p fs in
  v_failures v = 0 /\ v_passes v = Z.of_nat (length (flat_map snd fs)) /\
  forall r, In r (v_fields v) -> fr_failures r = 0.
Proof.
  intros H v. destruct (dataset_counts p fs) as [Hp Hf]. fold v in Hp, Hf.
  assert (Hz : v_failures v = 0) by (apply dataset_failures_zero_iff_proof; exact H).
  split; [exact Hz|]. split.
  - pose proof (count_true_false_length (verdicts p fs)) as Hl. rewrite <- Hp, <- Hf, Hz in Hl.
    rewrite Z.add_0_r in Hl. rewrite Hl, verdicts_length. reflexivity.
  - subst v. rewrite verify_dataset_eq. intros r Hr. apply in_map_iff in Hr as [f [<- Hf']].
    rewrite verify_field_eq. apply count_false_zero_iff. intros b Hb.
    apply in_map_iff in Hb as [k [<- Hk]]. exact (H f k Hf' Hk).
Qed.

(* a field whose constraints are those discovered from its own column (the rex hypothesis is property C03) *)
Definition self_discovered (f : column * list constr) : Prop :=
  well_typed (fst f) /\
  exists rex, (forall oks, rex = Some oks -> forallb (fun b => b) oks = true) /\
              discover (fst f) rex = Some (snd f).

Lemma self_discovered_pass p fields : Forall self_discovered fields ->
  forall f k, In f fields -> In k (snd f) -> verify p (Some (fst f)) k = true.
Proof.
  intros H f k Hf Hk. destruct (proj1 (Forall_forall _ _) H f Hf) as [Hw [rex [Hr Hd]]].
  exact (closure_proof p (fst f) rex (snd f) Hw Hr Hd k Hk).
Qed.

Definition as_fields (fields : list (column * list constr)) : list (option column * list constr) :=
  map (fun f => (Some (fst f), snd f)) fields.

Lemma as_fields_pass p fields :
  (forall f k, In f (as_fields fields) -> In k (snd f) -> verify p (fst f) k = true) <->
  (forall f k, In f fields -> In k (snd f) -> verify p (Some (fst f)) k = true).
Proof.
  unfold as_fields. split.
  - intros H f k Hf Hk. apply (H (Some (fst f), snd f) k); [apply in_map_iff; eauto|exact Hk].
  - intros H f k Hf Hk. apply in_map_iff in Hf as [g [<- Hg]]. exact (H g k Hg Hk).
Qed.

Lemma row_failures_nil n : row_failures [] n = repeat 0 n.
Proof. induction n as [|n IH]; [reflexivity|]. cbn [row_failures map filter length repeat]. rewrite IH. reflexivity. Qed.

Lemma filter_pos_repeat0 n : filter (fun z => Z.ltb 0 z) (repeat 0 n) = [].
Proof. induction n as [|n IH]; [reflexivity|]. exact IH. Qed.

Theorem closure_detect_proof p fields nrows : Forall self_discovered fields ->
  let d := detect p fields nrows in
  d_columns d = [] /\ d_nfailures d = repeat 0 nrows /\ d_failing d = 0 /\ d_passing d = Z.of_nat nrows.
Proof.
  intros H. pose proof (proj2 (detect_no_columns_iff p fields nrows) (self_discovered_pass p fields H)) as Hc.
  revert Hc. unfold detect. cbn [d_columns d_nfailures d_failing d_passing]. intros ->.
  rewrite row_failures_nil, filter_pos_repeat0. cbn [length]. repeat split; lia.
Qed.

Theorem closure_dataset_proof p fields : Forall self_discovered fields ->
  let v := verify_dataset p (as_fields fields) in
  v_failures v = 0 /\
  v_passes v = Z.of_nat (length (flat_map (@snd column (list constr)) fields)) /\
  forall r, In r (v_fields v) -> fr_failures r = 0.
Proof.
  intros H. pose proof (dataset_all_pass p (as_fields fields)) as Hall.
  replace (flat_map snd (as_fields fields)) with (flat_map (@snd column (list constr)) fields) in Hall.
  - apply Hall, as_fields_pass, self_discovered_pass, H.
  - unfold as_fields. rewrite !flat_map_concat_map, map_map. reflexivity.
Qed.
