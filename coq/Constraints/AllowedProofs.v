(* C02, allowed_values: the verifier's short cut - "more distinct values than allowed values, so fail without looking
   at the values" - is exact (pigeonhole), so the verdict is the documented meaning for every string column:
   every non-null value is one of the allowed values. *)
From Coq Require Import ZArith List Bool Lia Permutation.
From Tdda Require Import Base.ListFacts Base.Sexp Base.Str Base.Sort Base.SortProofs Constraints.Model Constraints.ModelProofs.
Import ListNotations.
Open Scope Z_scope.

Definition all_strings (l : list value) : Prop := forall v, In v l -> exists s, v = VStr s.

Lemma veqb_str a b : veqb (VStr a) (VStr b) = str_eqb a b.
Proof.
  unfold veqb. cbn [vleb]. destruct (str_eqb a b) eqn:E.
  - apply str_eqb_eq in E. subst. rewrite str_leb_refl. reflexivity.
  - destruct (str_leb a b) eqn:E1, (str_leb b a) eqn:E2; try reflexivity.
    rewrite (str_leb_antisym a b E1 E2), str_eqb_refl in E. discriminate.
Qed.

Lemma vdedup_In l v : In v (vdedup l) -> In v l.
Proof.
  revert v; induction l as [|x l IH]; intros v; cbn [vdedup]; [intros []|].
  intros [<-|H]; [left; reflexivity|]. apply filter_In in H as [H _]. right. apply IH. exact H.
Qed.

(* every value of a string list is veqb-equal to (so, equal to) one kept by vdedup *)
Lemma vdedup_covers l : all_strings l -> forall v, In v l -> In v (vdedup l).
Proof.
  induction l as [|x l IH]; intros Hs v; [intros []|]. cbn [vdedup].
  assert (Hs' : all_strings l) by (intros u Hu; apply Hs; right; exact Hu).
  intros [<-|Hv]; [left; reflexivity|].
  destruct (Hs x (or_introl eq_refl)) as [sx ->]. destruct (Hs v (or_intror Hv)) as [sv ->].
  destruct (str_eqb sx sv) eqn:E; [apply str_eqb_eq in E; subst; left; reflexivity|].
  right. apply filter_In. split; [apply IH; assumption|]. rewrite veqb_str, E. reflexivity.
Qed.

Lemma vdedup_NoDup_strs l : all_strings l -> NoDup (map str_of (vdedup l)).
Proof.
  induction l as [|x l IH]; intro Hs; cbn [vdedup map]; [constructor|].
  assert (Hs' : all_strings l) by (intros u Hu; apply Hs; right; exact Hu).
  destruct (Hs x (or_introl eq_refl)) as [sx ->]. constructor; [|apply NoDup_map_filter, IH, Hs'].
  intro Hin. apply in_map_iff in Hin as [v [Hv Hin]]. apply filter_In in Hin as [Hin Hn].
  destruct (Hs' v (vdedup_In l v Hin)) as [sv ->]. cbn [str_of] in Hv. subst sv.
  rewrite veqb_str, str_eqb_refl in Hn. discriminate.
Qed.

(* C07, allowed_values: what discovery lists is exactly the set of distinct non-null strings, each once *)
Theorem uniques_exact c : all_strings (non_nulls c) ->
  (forall s, In s (uniques c) <-> In (VStr s) (non_nulls c)) /\ NoDup (uniques c).
Proof.
  intro Hs. split; unfold uniques.
  - intro s. unfold sort_strs. rewrite isort_In, in_map_iff. split.
    + intros [v [<- Hv]]. apply vdedup_In in Hv. destruct (Hs v Hv) as [sv ->]. exact Hv.
    + intro H. exists (VStr s). split; [reflexivity|]. apply vdedup_covers; assumption.
  - eapply Permutation_NoDup; [apply sort_strs_perm|]. apply vdedup_NoDup_strs. exact Hs.
Qed.

Definition allowed_meaning (c : column) (vs : list str) : bool :=
  forallb (fun v => mem_str (str_of v) vs) (non_nulls c).

Theorem verify_allowed_spec p c vs : all_strings (non_nulls c) ->
  verify p (Some c) (CAllowed (Some vs)) = allowed_meaning c vs.
Proof.
  intro Hs. cbn [verify]. unfold allowed_meaning. destruct (uniques_exact c Hs) as [Hin Hnd].
  assert (Hall : forallb (fun u => mem_str u vs) (uniques c) =
                 forallb (fun v => mem_str (str_of v) vs) (non_nulls c)).
  { apply eq_true_iff_eq. rewrite !forallb_forall. split.
    - intros H v Hv. destruct (Hs v Hv) as [s ->]. apply H, Hin, Hv.
    - intros H u Hu. apply Hin in Hu. exact (H _ Hu). }
  destruct (Z.ltb_spec (Z.of_nat (length vs)) (nunique c)) as [Hlt|_]; [|exact Hall].
  (* pigeonhole: more distinct values than allowed values *)
  rewrite <- Hall. symmetry. apply not_true_is_false. intro E. rewrite forallb_forall in E.
  assert (Hincl : incl (uniques c) vs) by (intros u Hu; apply mem_str_In, E, Hu).
  pose proof (NoDup_incl_length Hnd Hincl). pose proof (uniques_length c). lia.
Qed.

(* non-vacuity: the short cut fires on this column, and the meaning is false there too *)
Example allowed_shortcut_example :
  let c := {| c_type := TString; c_cells := [Some (VStr [97]); None; Some (VStr [98]); Some (VStr [97]); Some (VStr [99])] |} in
  nunique c = 3 /\ allowed_meaning c [[97]; [97]] = false /\ allowed_meaning c [[99]; [98]; [97]; [100]] = true.
Proof. vm_compute. repeat split. Qed.
