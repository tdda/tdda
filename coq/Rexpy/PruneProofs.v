(* Pruning (Extractor.find_bad_patterns, max_patterns / min_strings_per_pattern): what survives.
   kept o freqs = the indices of the expressions that remain, in order. *)
From Coq Require Import ZArith List Bool Lia Permutation.
From Tdda Require Import Base.ListFacts Base.Sort Base.SortProofs Rexpy.Pipeline.
Import ListNotations.
Open Scope Z_scope.

Definition kept (o : ropts) (freqs : list Z) : list nat :=
  filter (fun i => negb (mem_nat i (find_bad_patterns o freqs))) (seq 0 (length freqs)).

Lemma mem_nat_In i l : mem_nat i l = true <-> In i l.
Proof. apply existsb_eqb_In. Qed.

Lemma ranking_perm freqs :
  Permutation (seq 0 (length freqs))
              (map fst (isort neg_freq_leb (combine (seq 0 (length freqs)) freqs))).
Proof.
  pose proof (Permutation_map fst (isort_perm neg_freq_leb (combine (seq 0 (length freqs)) freqs))) as H.
  rewrite map_fst_combine in H by apply seq_length. exact H.
Qed.

(* the indices that find_bad_patterns lists for counting fewer than m strings *)
Lemma too_few_In m freqs i :
  In i (map fst (filter (fun kv : nat * Z => snd kv <? m) (combine (seq 0 (length freqs)) freqs))) <->
  (i < length freqs)%nat /\ nth i freqs 0 < m.
Proof.
  rewrite in_map_iff. split.
  - intros [[j v] [<- H]]. apply filter_In in H as [H Hv]. apply (in_combine_seq _ 0) in H as [Hj ->].
    split; [exact Hj|apply Z.ltb_lt, Hv].
  - intros [Hi Hv]. exists (i, nth i freqs 0). split; [reflexivity|]. apply filter_In.
    split; [apply (in_combine_seq _ 0); split; [exact Hi|reflexivity]|apply Z.ltb_lt, Hv].
Qed.

Lemma kept_In o freqs i : In i (kept o freqs) <-> (i < length freqs)%nat /\ ~ In i (find_bad_patterns o freqs).
Proof. unfold kept. rewrite filter_In, in_seq, negb_true_iff, <- not_true_iff_false, mem_nat_In.
  apply and_iff_compat_r. lia.
Qed.

(* the order of the result: pruning only removes *)
Lemma kept_sublist o freqs : exists f, kept o freqs = filter f (seq 0 (length freqs)).
Proof. eexists. reflexivity. Qed.

(* with only min_strings_per_pattern set (no max_patterns) the kept expressions are EXACTLY those that count enough *)
Lemma kept_min_strings_exact o freqs i :
  o_max_patterns o = None -> (i < length freqs)%nat ->
  (In i (kept o freqs) <-> (o_min_strings o <= 1 \/ o_min_strings o <= nth i freqs 0)).
Proof.
  intros HM Hi. rewrite kept_In. unfold find_bad_patterns. rewrite HM. cbn [app].
  destruct (Z.ltb_spec 1 (o_min_strings o)) as [Hm|Hm]; [rewrite too_few_In|cbn [In]]; lia.
Qed.

(* never more than max_patterns expressions: what is kept has no repeats and lies among the first M of the ranking *)
Lemma kept_max_patterns o freqs M : o_max_patterns o = Some M -> (length (kept o freqs) <= Z.to_nat M)%nat.
Proof.
  intro HM. pose proof (ranking_perm freqs) as Hperm. set (rank := map fst _) in Hperm.
  apply Nat.le_trans with (length (firstn (Z.to_nat M) rank)); [|apply firstn_le_length].
  apply NoDup_incl_length; [apply NoDup_filter, seq_NoDup|].
  intros x Hx. apply kept_In in Hx as [Hx Hgood].
  assert (Hr : In x rank) by (apply (Permutation_in _ Hperm), in_seq; lia).
  rewrite <- (firstn_skipn (Z.to_nat M) rank) in Hr. apply in_app_or in Hr as [Hr|Hr]; [exact Hr|].
  destruct Hgood. unfold find_bad_patterns. rewrite HM. apply in_or_app. left.
  destruct (Z.ltb_spec M (Z.of_nat (length freqs))) as [_|Hge]; [exact Hr|].
  rewrite skipn_all2 in Hr; [destruct Hr|]. rewrite <- (Permutation_length Hperm), seq_length. lia.
Qed.

Example kept_example :
  kept {| o_tag := false; o_extra := []; o_full_escape := false; o_remove_empties := false; o_strip := false;
          o_vlf := false; o_max_patterns := Some 2; o_min_strings := 2; o_dialect_out := false;
          z_do_all := None; z_do_all_exceptions := 4000; z_max_sampled_attempts := 2;
          z_max_punc_in_group := 5; z_max_strings_in_group := 10 |} [4; 1; 2; 1; 3] = [0%nat; 4%nat].
Proof. vm_compute. reflexivity. Qed.

(* the counts the loop hands to the pruning are one per expression (so that `kept` is about the expressions) *)
Lemma find_non_matches_freqs_length mt rexes all fails re_freqs :
  rexes <> [] -> find_non_matches mt rexes all = Ok (fails, re_freqs) -> length re_freqs = length rexes.
Proof.
  intros Hne H. unfold find_non_matches in H. destruct rexes as [|r rs]; [contradiction|].
  destruct (mapM _ _) as [firsts|err]; cbn [bind] in H; [|discriminate].
  injection H as _ <-. cbn [length]. rewrite map_length, seq_length. reflexivity.
Qed.

(* run_extractor's own filter is `kept` whenever there is one count per expression *)
Lemma keep_is_kept o freqs n :
  n = length freqs ->
  filter (fun i => negb (mem_nat i (find_bad_patterns o freqs))) (seq 0 n) = kept o freqs.
Proof. intros ->. reflexivity. Qed.
