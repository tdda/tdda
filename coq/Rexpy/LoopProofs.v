(* The extraction loop and the whole run.  What a run returns comes from its last pass: one batch extraction and
   the check made on exactly its expressions.  The loop ends: every pass that goes on either uses up one of the
   max_sampled_attempts sampled attempts or, after them, adds a stored string that the working examples did not have
   (`missing` shrinks), so a run makes at most max_sampled_attempts + (number of stored strings) + 1 passes; the fuel
   run_extractor supplies is one more than that and is never exhausted (extract_loop_fuel). *)
From Coq Require Import ZArith List Bool Lia.
From Tdda Require Import Base.ListFacts Base.Sexp Base.Str Rexpy.Chars Rexpy.Pipeline Rexpy.PipelineProofs
     Rexpy.CleanProofs.
Import ListNotations.
Open Scope Z_scope.

(* One pass of the loop.  Its errors are the oracles'; it stops with its own batch extraction and check when the check
   adds nothing; otherwise it goes on with more working examples - all the fresh failures once the sampled attempts
   are over.  To prove Q of a pass it is enough to prove it of these three. *)
Lemma extract_loop_step fuel ct o e stripped gt mt all samples ex attempt
      (Q : res (list (list frag) * list str * list Z * list str * examples * list (list nat) * Z) -> Prop) :
  (forall err, not_fuel err -> Q (Err err)) ->
  (forall merged rex maxN fails rf samples1,
     batch_extract ct o e stripped gt ex = Ok (merged, rex) ->
     sample_non_matches o mt samples rex all maxN = Ok (fails, rf, samples1) ->
     let failex := fst (clean ct o (map (fun sf : str * Z => (Some (fst sf), snd sf)) fails)) in
     let fresh := filter (fun sf : str * Z => negb (mem_str (fst sf) (ex_strings ex)))
                         (combine (ex_strings failex) (ex_freqs failex)) in
     (fresh = [] -> Q (Ok (merged, rex, rf, ex_strings failex, ex, samples1, attempt))) /\
     (forall more samples2 fr0 frr, fresh = fr0 :: frr -> (z_max_sampled_attempts o < attempt -> more = fresh) ->
        (ne_samples samples1 -> ne_samples samples2) ->
        Q (extract_loop fuel ct o e stripped gt mt all samples2
             {| ex_strings := ex_strings ex ++ map fst more; ex_freqs := ex_freqs ex ++ map snd more |} (attempt + 1)))) ->
  Q (extract_loop (S fuel) ct o e stripped gt mt all samples ex attempt).
Proof.
  intros Herr Hpass. cbn [extract_loop].
  apply bind_case; [intros err Eb; apply Herr; exact (batch_extract_err _ _ _ _ _ _ _ Eb)|intros [merged rex] Eb].
  apply bind_case; [intros err Es; apply Herr; exact (sample_non_matches_err _ _ _ _ _ _ _ Es)|intros [[fails rf] samples1] Es].
  destruct (Hpass merged rex _ fails rf samples1 Eb Es) as [Hstop Hgo].
  apply list_case; [intro Efs; apply Hstop; rewrite Efs; reflexivity|intros fs0 fsr _].
  apply list_case; [exact Hstop|intros fr0 frr Efresh].
  destruct (Z.leb _ _ || Z.ltb (z_max_sampled_attempts o) attempt) eqn:Ecase.
  - apply (Hgo _ _ fr0 frr Efresh); [reflexivity|exact (fun HF => HF)].
  - apply orb_false_iff in Ecase as [_ Ege].
    apply bind_case; [intros err Et; apply Herr; exact (take_sample_err _ _ _ Et)|intros [pk rest] Et].
    apply (Hgo _ _ fr0 frr Efresh); [lia|intro HF; apply (take_sample_nonempty _ _ _ _ HF Et)].
Qed.

(* what a loop result is: the expressions of the batch extraction from the final working examples, together with the
   outcome of the check that was run on exactly those expressions *)
Definition last_pass (ct : chartab) (o : ropts) (e : str) (stripped : bool) (gt : groups_table) (mt : match_table)
           (all : examples) (samples : list (list nat))
           (r : list (list frag) * list str * list Z * list str * examples * list (list nat) * Z) : Prop :=
  let '(merged, rex, rf, lf, ex', smp', passes) := r in
  exists smp fails maxN,
    (ne_samples samples -> ne_samples smp) /\
    batch_extract ct o e stripped gt ex' = Ok (merged, rex) /\
    sample_non_matches o mt smp rex all maxN = Ok (fails, rf, smp') /\
    lf = ex_strings (fst (clean ct o (map (fun sf : str * Z => (Some (fst sf), snd sf)) fails))) /\
    forall s, In s lf -> In s (ex_strings ex').

Lemma extract_loop_last fuel ct o e stripped gt mt all : forall samples ex attempt r,
  extract_loop fuel ct o e stripped gt mt all samples ex attempt = Ok r -> last_pass ct o e stripped gt mt all samples r.
Proof.
  induction fuel as [|fuel IH]; intros samples ex attempt; [discriminate|].
  apply (extract_loop_step fuel ct o e stripped gt mt all samples ex attempt
           (fun x => forall r, x = Ok r -> last_pass ct o e stripped gt mt all samples r)).
  - intros err _ r E. discriminate E.
  - intros merged rex maxN fails rf samples1 Eb Es failex fresh.
    assert (HF1 : ne_samples samples -> ne_samples samples1).
    { intro HF. apply (sample_non_matches_ok _ _ _ _ _ _ _ _ _ Es). exact HF. }
    split.
    + intros Hfresh r E. injection E as <-. exists samples, fails, maxN.
      split; [exact (fun HF => HF)|]. split; [exact Eb|]. split; [exact Es|]. split; [reflexivity|].
      intros s Hin. destruct (in_combine_exists _ _ s (clean_lengths _ _ _) Hin) as [f Hf].
      pose proof (proj1 (filter_nil_iff _ _) Hfresh (s, f) Hf) as Hn. apply negb_false_iff in Hn. apply mem_str_In. exact Hn.
    + intros more samples2 fr0 frr _ _ Hne r E. apply IH in E.
      destruct r as [[[[[[merged' rex'] rf'] lf] ex'] smp'] passes]. destruct E as (smp & fails' & maxN' & Hsmp & Hrest).
      exists smp, fails', maxN'. split; [intro HF; apply Hsmp, Hne, HF1, HF|exact Hrest].
Qed.

(* Extractor.__init__ + extract(): either there is nothing to work on, or the result is read off the loop's.
   To prove P of every result of a run it is enough to prove it of these two. *)
Lemma run_extractor_cases ct o gt mt samples items lo (P : loop_out -> Prop) :
  run_extractor ct o gt mt samples items = Ok lo ->
  (forall picked rf0 samples1,
     sample_non_matches o mt samples [] (fst (clean ct o items)) (z_do_all o) = Ok (picked, rf0, samples1) ->
     let ex := fst (clean ct o (map (fun sf : str * Z => (Some (fst sf), snd sf)) picked)) in
     (ex_strings ex = [] ->
      P {| lo_rex := []; lo_none := true; lo_examples := ex; lo_passes := 0;
           lo_samples_left := List.length samples1; lo_last_failures := [] |}) /\
     (forall e fuel merged rex rf lf ex' samples2 passes final,
        ex_strings ex <> [] ->
        extract_loop fuel ct o e (snd (clean ct o items)) gt mt (fst (clean ct o items)) samples1 ex 1 =
          Ok (merged, rex, rf, lf, ex', samples2, passes) ->
        (let keep := filter (fun i => negb (mem_nat i (find_bad_patterns o rf))) (seq 0 (List.length rex)) in
         if o_dialect_out o
         then mapM (vrle2re true (o_full_escape o) e (snd (clean ct o items)) (o_tag o)) (map (fun i => nth i merged []) keep)
         else Ok (map (fun i => nth i rex []) keep)) = Ok final ->
        P {| lo_rex := final; lo_none := false; lo_examples := ex'; lo_passes := passes;
             lo_samples_left := List.length samples2; lo_last_failures := lf |})) ->
  P lo.
Proof.
  unfold run_extractor. destruct (clean ct o items) as [all stripped]. intros H HP. revert H.
  apply (bind_case (fun x => x = Ok lo -> P lo)); [intros err _ E; discriminate E|intros [[picked rf0] samples1] Es].
  destruct (HP picked rf0 samples1 Es) as [Hnone Hloop].
  apply (list_case (fun x => x = Ok lo -> P lo)); [intros Eex H; injection H as <-; exact (Hnone Eex)|intros x0 xs Eex].
  apply (bind_case (fun x => x = Ok lo -> P lo));
    [intros err _ E; discriminate E|intros [[[[[[merged rex] rf] lf] ex'] samples2] passes] El].
  apply (bind_case (fun x => x = Ok lo -> P lo)); [intros err _ E; discriminate E|intros final Ef].
  intro H. injection H as <-. eapply Hloop; [rewrite Eex; discriminate|exact El|exact Ef].
Qed.

Lemma check_without_failures_covers ct o mt all smp rex maxN fails rf smp' :
  wf_all ct o all -> ne_samples smp ->
  sample_non_matches o mt smp rex all maxN = Ok (fails, rf, smp') ->
  ex_strings (fst (clean ct o (map (fun sf : str * Z => (Some (fst sf), snd sf)) fails))) = [] ->
  forall s, In s (ex_strings all) -> exists r, In r rex /\ lookup_match mt r s = Some true.
Proof.
  intros [Hlen Hkept] HF Hs Hlast. destruct (sample_non_matches_ok _ _ _ _ _ _ _ _ _ Hs) as [Hsub Hne].
  destruct (Hne HF) as [_ Hempty]. apply (find_non_matches_complete mt rex all rf Hlen). apply Hempty.
  destruct fails as [|p fails]; [reflexivity|].
  pose proof (clean_empty_none_kept ct o _ Hlast (Some (fst p), snd p) (or_introl eq_refl)) as Hk.
  rewrite (Hkept p (Hsub p (or_introl eq_refl))) in Hk. discriminate Hk.
Qed.

(* C03 at the level of the loop: for every oracle (group splits, matches, non-empty sample selections),
   every option set without pruning, in the perl dialect: if the run ends with a check that reported no
   failure, every example that clean keeps is matched by one of the returned expressions *)
Theorem run_extractor_covers ct o gt mt samples items lo :
  run_extractor ct o gt mt samples items = Ok lo ->
  (forall it, In it items -> 0 <= snd it) ->
  ne_samples samples -> no_pruning o -> o_dialect_out o = false ->
  lo_none lo = false -> lo_last_failures lo = [] ->
  forall s, In s (ex_strings (fst (clean ct o items))) ->
  exists r, In r (lo_rex lo) /\ lookup_match mt r s = Some true.
Proof.
  intros H Hnn HF Hnp Hperl. pattern lo. apply (run_extractor_cases _ _ _ _ _ _ _ _ H). intros picked rf0 samples1 Es ex.
  split; [discriminate|]. intros e fuel merged rex rf lf ex' samples2 passes final _ El Ef. cbn [lo_none lo_last_failures lo_rex].
  intros _ ->. cbv zeta in Ef.
  rewrite Hperl, (find_bad_patterns_none o rf Hnp), filter_all_true, map_nth_seq in Ef by reflexivity. injection Ef as <-.
  apply extract_loop_last in El as (smp & fails & maxN & Hne & _ & Hs & Hlf & _).
  apply (check_without_failures_covers ct o mt _ smp rex maxN fails rf samples2); [apply clean_wf, Hnn| |exact Hs|symmetry; exact Hlf].
  apply Hne. apply (sample_non_matches_ok _ _ _ _ _ _ _ _ _ Es). exact HF.
Qed.

(* C13: every returned expression is anchored, and there are never more expressions than working examples
   (distinct strings); an input with nothing to keep returns nothing *)
Theorem run_extractor_shape ct o gt mt samples items lo :
  run_extractor ct o gt mt samples items = Ok lo ->
  Forall anchored (lo_rex lo) /\
  (length (lo_rex lo) <= length (ex_strings (lo_examples lo)))%nat /\
  (ex_strings (fst (clean ct o items)) = [] -> lo_rex lo = [] /\ lo_none lo = true).
Proof.
  intro H. pattern lo. apply (run_extractor_cases _ _ _ _ _ _ _ _ H). intros picked rf0 samples1 Es ex. split.
  { intros _. split; [constructor|]. split; [apply Nat.le_0_l|]. intros _. split; reflexivity. }
  intros e fuel merged rex rf lf ex' samples2 passes final Hex El Ef. cbn [lo_rex lo_none lo_examples].
  apply extract_loop_last in El as (_ & _ & _ & _ & Eb & _). apply batch_extract_shape in Eb as (Hl1 & Hl2 & Ha).
  set (keep := filter _ (seq 0 (length rex))) in Ef.
  assert (Hkeep : (length keep <= length rex)%nat).
  { etransitivity; [apply filter_length_le|]. rewrite seq_length. reflexivity. }
  split; [|split].
  - destruct (o_dialect_out o).
    + apply Forall_forall. intros r Hr. destruct (mapM_In _ _ _ _ Ef Hr) as [fs [_ Hfs]]. eapply vrle2re_anchored. exact Hfs.
    + injection Ef as <-. apply Forall_forall. intros r Hr. apply in_map_iff in Hr as [i [<- Hi]].
      apply filter_In in Hi as [Hi _]. apply in_seq in Hi.
      rewrite Forall_forall in Ha. apply Ha. apply nth_In. lia.
  - destruct (o_dialect_out o); [apply mapM_length in Ef; rewrite Ef|injection Ef as <-]; rewrite map_length; lia.
  - intro Hall. exfalso. apply Hex. pose proof (proj1 (sample_non_matches_ok _ _ _ _ _ _ _ _ _ Es)) as Hi.
    rewrite Hall in Hi. destruct picked as [|x pk]; [reflexivity|destruct (Hi x (or_introl eq_refl))].
Qed.

(* the measure: stored strings the working examples do not have yet *)
Definition missing (all : examples) (strings : list str) : list str :=
  filter (fun s => negb (mem_str s strings)) (ex_strings all).

Lemma not_mem_str_incl l l' x : incl l l' -> negb (mem_str x l') = true -> negb (mem_str x l) = true.
Proof.
  intros Hi Hx. apply negb_true_iff in Hx. apply negb_true_iff.
  destruct (mem_str x l) eqn:E; [|reflexivity]. apply mem_str_In, Hi, mem_str_In in E. congruence.
Qed.

Lemma missing_mono all l l' : incl l l' -> (length (missing all l') <= length (missing all l))%nat.
Proof. intro Hi. apply filter_length_mono. intros x _. apply not_mem_str_incl, Hi. Qed.

Lemma missing_strict all l l' x : incl l l' -> In x (ex_strings all) -> ~ In x l -> In x l' ->
  (length (missing all l') < length (missing all l))%nat.
Proof.
  intros Hi Hall Hn Hin. apply (filter_length_strict _ _ _ x); [intros y _; apply not_mem_str_incl, Hi|exact Hall| |].
  - apply negb_true_iff. destruct (mem_str x l) eqn:E; [|reflexivity]. apply mem_str_In in E. contradiction.
  - apply negb_false_iff. apply mem_str_In. exact Hin.
Qed.

Theorem extract_loop_fuel ct o e stripped gt mt all : stored_final ct o all ->
  forall fuel samples ex attempt,
  (Z.to_nat (z_max_sampled_attempts o + 1 - attempt) + length (missing all (ex_strings ex)) < fuel)%nat ->
  errs_in not_fuel (extract_loop fuel ct o e stripped gt mt all samples ex attempt).
Proof.
  intro Hfin. induction fuel as [|fuel IH]; intros samples ex attempt Hm; [lia|].
  apply extract_loop_step; [intros err Hne; apply errs_in_err, Hne|].
  intros merged rex maxN fails rf samples1 _ Es failex fresh. split; [intros _; apply errs_in_ok|].
  intros more samples2 fr0 frr Efresh Hmore _. apply IH. cbn [ex_strings].
  assert (Hfr0 : In fr0 fresh) by (rewrite Efresh; left; reflexivity).
  pose proof (missing_mono all (ex_strings ex) (ex_strings ex ++ map fst more) (incl_appl _ (incl_refl _))) as Hmono.
  destruct (Z.ltb_spec (z_max_sampled_attempts o) attempt) as [Hlt|Hge]; [|lia].
  (* unsampled pass: a stored string that was missing has been added *)
  rewrite (Hmore Hlt) in *. apply filter_In in Hfr0 as [Hin Hn]. apply negb_true_iff in Hn.
  pose proof (missing_strict all (ex_strings ex) (ex_strings ex ++ map fst fresh) (fst fr0) (incl_appl _ (incl_refl _))) as Hs.
  assert (In (fst fr0) (ex_strings ex ++ map fst fresh)) by (apply in_or_app; right; apply in_map, filter_In; split; [exact Hin|apply negb_true_iff, Hn]).
  enough (length (missing all (ex_strings ex ++ map fst fresh)) < length (missing all (ex_strings ex)))%nat by lia.
  apply Hs; [|intro Hc; apply mem_str_In in Hc; congruence|assumption].
  apply (failex_sub ct o all fails Hfin (proj1 (sample_non_matches_ok _ _ _ _ _ _ _ _ _ Es))). destruct fr0. eapply in_combine_l. exact Hin.
Qed.

Lemma run_extractor_err ct o gt mt samples items : errs_in not_fuel (run_extractor ct o gt mt samples items).
Proof.
  unfold run_extractor. pose proof (clean_stored_final ct o items) as Hfin.
  destruct (clean ct o items) as [all stripped]. cbn [fst] in Hfin.
  apply errs_in_bind; [apply sample_non_matches_err|intros [[picked rf0] samples1] _]. cbv beta iota zeta.
  set (ex := fst (clean ct o (map (fun sf : str * Z => (Some (fst sf), snd sf)) picked))).
  apply list_case; [intros _; apply errs_in_ok|intros x0 xs _]. apply errs_in_bind.
  - apply extract_loop_fuel; [exact Hfin|].
    assert (length (missing all (ex_strings ex)) <= length (ex_strings all))%nat by apply filter_length_le. lia.
  - intros [[[[[[merged rex] re_freqs] lastfail] ex'] samples2] passes] _. cbv beta iota.
    apply errs_in_bind; [|intros final _; apply errs_in_ok].
    destruct (o_dialect_out o); [|apply errs_in_ok]. apply errs_in_mapM. intros fs _. apply vrle2re_err.
Qed.

Theorem run_extractor_fuel ct o gt mt samples items : run_extractor ct o gt mt samples items <> Err E_FUEL.
Proof. intro H. exact (run_extractor_err _ _ _ _ _ _ _ H eq_refl). Qed.
