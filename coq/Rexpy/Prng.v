(* C14: how the Extractor uses Python's global random generator.  The generator is abstract:
   a state type G, seeding (seed_state), and one transition per random.sample call (advance).
   PRNGState(n): saved := getstate(); seed(n)  (only when n is not None);  restore(): setstate(saved).
   Extractor.__init__ and Extractor.extract() each run  PRNGState(seed); try: body finally: restore(). *)
From Coq Require Import ZArith List.
Import ListNotations.

Section Prng.
  Variable G : Type.
  Variable seed_state : Z -> G.
  Variable advance : G -> G.

  Inductive event := EGet | ESeed (n : Z) | ESample | ESet.

  (* k samples from state g: the state afterwards and the states at which the samples were drawn *)
  Fixpoint draw (k : nat) (g : G) : G * list G :=
    match k with
    | O => (g, [])
    | S k' => let '(g', seen) := draw k' (advance g) in (g', g :: seen)
    end.

  (* one guarded phase drawing k samples; returns the final global state, the states at which the
     samples were drawn, and the trace of calls on the random module *)
  Definition phase (seed : option Z) (k : nat) (g : G) : G * list G * list event :=
    match seed with
    | Some n =>
      let saved := g in
      let '(_, seen) := draw k (seed_state n) in
      (saved, seen, [EGet; ESeed n] ++ repeat ESample k ++ [ESet])
    | None =>
      let '(g', seen) := draw k g in (g', seen, repeat ESample k)
    end.

  (* Extractor(...): the initial sample (k1 draws) then extract() (k2 draws) *)
  Definition extractor_run (seed : option Z) (k1 k2 : nat) (g : G) : G * list G * list event :=
    let '(g1, seen1, t1) := phase seed k1 g in
    let '(g2, seen2, t2) := phase seed k2 g1 in
    (g2, seen1 ++ seen2, t1 ++ t2).

  Lemma draw_seen_indep k : forall g, snd (draw k g) = snd (draw k g).
  Proof. reflexivity. Qed.

  (* with a seed the global generator ends in the state it started in, whatever is drawn, and the generator
     states the samples are drawn from do not depend on the initial global state: the run is reproducible *)
  Lemma extractor_run_seeded n k1 k2 g :
    let calls k := [EGet; ESeed n] ++ repeat ESample k ++ [ESet] in
    extractor_run (Some n) k1 k2 g =
    (g, snd (draw k1 (seed_state n)) ++ snd (draw k2 (seed_state n)), calls k1 ++ calls k2).
  Proof.
    unfold extractor_run, phase.
    destruct (draw k1 (seed_state n)) as [g1 s1]. destruct (draw k2 (seed_state n)) as [g2 s2]. reflexivity.
  Qed.

  Lemma draw_fst k : forall g, fst (draw k g) = Nat.iter k advance g.
  Proof.
    induction k as [|k IH]; intro g; [reflexivity|]. cbn [draw].
    specialize (IH (advance g)). destruct (draw k (advance g)) as [g' s]. cbn [fst] in *.
    rewrite IH. symmetry. apply nat_rect_succ_r.
  Qed.

  (* without a seed nothing is saved or restored: the generator simply advances once per sample *)
  Theorem unseeded_advances_proof k1 k2 g :
    fst (fst (extractor_run None k1 k2 g)) = Nat.iter (k1 + k2) advance g.
  Proof.
    unfold extractor_run, phase.
    pose proof (draw_fst k1 g) as H1. destruct (draw k1 g) as [g1 s1].
    pose proof (draw_fst k2 g1) as H2. destruct (draw k2 g1) as [g2 s2]. cbn [fst] in *.
    rewrite H2, H1, Nat.add_comm. symmetry. apply nat_rect_plus.
  Qed.

  Definition trace_of (seed : option Z) (k1 k2 : nat) (g : G) : list event := snd (extractor_run seed k1 k2 g).
End Prng.

(* wire: events as numbers: 0 getstate, 1 seed, 2 sample, 3 setstate; the generator is irrelevant
   for the trace, so instantiate it with unit *)
From Tdda Require Import Base.Sexp.
Definition prng_entry (s : sexp) : sexp :=
  let seed := sx_opt sx_Z (sx_nth 0 s) in
  let t := trace_of unit (fun _ => tt) (fun g => g) seed (sx_nat (sx_nth 1 s)) (sx_nat (sx_nth 2 s)) tt in
  L (map (fun e => match e with
                   | EGet => A 0 | ESeed _ => A 1 | ESample => A 2 | ESet => A 3 end) t).
