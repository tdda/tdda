(* The expression TEXT that rexpy renders for a refined pattern parses (Regex.parse_regex) to the sequence of
   quantified character sets that the pattern denotes, and the model matcher accepts exactly the strings the pattern
   matches fragment by fragment: for each of the eight sets of extra letters and both renderings of the categories. *)
From Coq Require Import ZArith List Bool Lia.
From Tdda Require Import Base.ListFacts Base.Sexp Base.Str Rexpy.Chars Rexpy.Pipeline Rexpy.OracleCheck Rexpy.Sem
     Rexpy.Regex Rexpy.PipelineProofs Rexpy.RefineProofs Rexpy.BatchProofs Rexpy.DecProofs.
Import ListNotations.
Open Scope Z_scope.

Inductive lang (ct : chartab) : list item -> str -> Prop :=
| lang_nil : lang ct [] []
| lang_cons it rest s1 s2 :
    forallb (sem_cset ct (i_set it)) s1 = true -> count_ok (i_min it) (i_max it) (length s1) ->
    lang ct rest s2 -> lang ct (it :: rest) (s1 ++ s2).

Lemma lang_nil_iff ct s : lang ct [] s <-> s = [].
Proof. split; [intro H; inversion H; reflexivity|intros ->; constructor]. Qed.

Lemma lang_cons_iff ct it rest s : lang ct (it :: rest) s <->
  exists s1 s2, s = s1 ++ s2 /\ forallb (sem_cset ct (i_set it)) s1 = true /\
                count_ok (i_min it) (i_max it) (length s1) /\ lang ct rest s2.
Proof.
  split.
  - intro H. inversion H as [|? ? s1 s2 Ha Hc Hr]. exists s1, s2. auto.
  - intros (s1 & s2 & -> & Ha & Hc & Hr). constructor; assumption.
Qed.

Lemma lang_single_iff ct it s :
  lang ct [it] s <-> forallb (sem_cset ct (i_set it)) s = true /\ count_ok (i_min it) (i_max it) (length s).
Proof.
  split.
  - intro H. apply lang_cons_iff in H as (s1 & s2 & -> & Ha & Hc & Hr). apply lang_nil_iff in Hr. subst s2. rewrite app_nil_r. auto.
  - intros [Ha Hc]. rewrite <- (app_nil_r s). constructor; [exact Ha|exact Hc|constructor].
Qed.

Lemma lang_app_iff ct i1 : forall i2 s,
  lang ct (i1 ++ i2) s <-> exists s1 s2, s = s1 ++ s2 /\ lang ct i1 s1 /\ lang ct i2 s2.
Proof.
  induction i1 as [|it i1 IH]; intros i2 s; cbn [app].
  - split.
    + intro H. exists [], s. split; [reflexivity|]. split; [constructor|exact H].
    + intros (s1 & s2 & -> & H1 & H2). apply lang_nil_iff in H1. subst s1. exact H2.
  - split.
    + intro H. apply lang_cons_iff in H as (a & b & -> & Ha & Hc & Hr). apply IH in Hr as (s1 & s2 & -> & H1 & H2).
      exists (a ++ s1), s2. rewrite app_assoc. split; [reflexivity|]. split; [constructor; assumption|exact H2].
    + intros (s1 & s2 & -> & H1 & H2). apply lang_cons_iff in H1 as (a & b & -> & Ha & Hc & Hr).
      rewrite <- app_assoc. constructor; [exact Ha|exact Hc|]. apply IH. exists b, s2. auto.
Qed.

Lemma take_while_ge p s1 s2 : forallb p s1 = true -> (length s1 <= take_while p (s1 ++ s2))%nat.
Proof.
  induction s1 as [|c s1 IH]; cbn [forallb app take_while length]; [lia|].
  intro H. apply andb_true_iff in H as [H1 H2]. rewrite H1. specialize (IH H2). lia.
Qed.

Lemma take_while_firstn p : forall s n, (n <= take_while p s)%nat -> forallb p (firstn n s) = true /\ length (firstn n s) = n.
Proof.
  induction s as [|c s IH]; intros n Hn; cbn [take_while] in Hn.
  - replace n with O by lia. split; reflexivity.
  - destruct n as [|n]; [split; reflexivity|]. destruct (p c) eqn:E; [|lia].
    destruct (IH n ltac:(lia)) as [H1 H2]. cbn [firstn forallb length]. rewrite E, H1, H2. split; reflexivity.
Qed.

Theorem match_items_complete ct items s : lang ct items s -> match_items ct items s = true.
Proof.
  induction 1 as [|it rest s1 s2 Hall Hc _ IH]; [reflexivity|]. cbn [match_items].
  apply existsb_exists. exists (length s1). split.
  - apply in_seq. pose proof (take_while_ge _ s1 s2 Hall). lia.
  - rewrite skipn_app_exact, IH, andb_true_r. apply count_okb_ok. exact Hc.
Qed.

Theorem match_items_sound ct items : forall s, match_items ct items s = true -> lang ct items s.
Proof.
  induction items as [|it rest IH]; intros s H; cbn [match_items] in H.
  - destruct s; [constructor|discriminate].
  - apply existsb_exists in H as [n [Hn Hb]]. apply in_seq in Hn. apply andb_true_iff in Hb as [Hc Hr].
    destruct (take_while_firstn (sem_cset ct (i_set it)) s n ltac:(lia)) as [Hall Hlen].
    rewrite <- (firstn_skipn n s). constructor; [exact Hall|rewrite Hlen; apply count_okb_ok; exact Hc|apply IH; exact Hr].
Qed.

Corollary match_items_spec ct items s : match_items ct items s = true <-> lang ct items s.
Proof. split; [apply match_items_sound|apply match_items_complete]. Qed.

Lemma fullmatch_match ct text s : re_model_fullmatch ct text s = Some true -> re_model_match ct text s = Some true.
Proof.
  unfold re_model_fullmatch, re_model_match. destruct (parse_regex text) as [items|]; [|discriminate].
  intro H. injection H as ->. reflexivity.
Qed.

(* an atom's parse does not depend on what follows its text *)
Lemma parse_br_app x f : forall s first its r, parse_br f s first = Some (its, r) ->
  forall k, parse_br (f + k) (s ++ x) first = Some (its, r ++ x).
Proof.
  induction f as [|f IH]; intros s first its r H k; [discriminate|]. cbn [Nat.add parse_br] in *.
  assert (Hc : forall b t, match parse_br f t false with Some (its0, r') => Some (b :: its0, r') | None => None end = Some (its, r) ->
               match parse_br (f + k) (t ++ x) false with Some (its0, r') => Some (b :: its0, r') | None => None end = Some (its, r ++ x)).
  { intros b t Ht. destruct (parse_br f t false) as [[its0 r']|] eqn:E; [|discriminate]. injection Ht as <- <-.
    rewrite (IH _ _ _ _ E k). reflexivity. }
  destruct s as [|c s]; [discriminate|]. cbn [app].
  destruct (Z.eqb c 93). { destruct first. apply Hc; exact H. congruence. }
  destruct (Z.eqb c 92).
  - destruct s as [|y s]; [discriminate|]. cbn [app].
    destruct (Z.eqb y 87); [apply Hc; exact H|]. destruct (Z.eqb y 115); [apply Hc; exact H|].
    destruct (ascii_alnum y); [discriminate|apply Hc; exact H].
  - destruct s as [|d1 [|d s]]; cbn [app].
    + destruct f; discriminate.
    + destruct x as [|x0 x]; [apply (Hc (BChar c) [d1]); exact H|].
      destruct (Z.eqb d1 45) eqn:E45; [|apply (Hc (BChar c) [d1]); exact H].
      (* a dash cannot be the last character: the bracket is not closed *)
      apply Z.eqb_eq in E45. subst d1. destruct f as [|[|f]]; discriminate.
    + destruct (Z.eqb d1 45); [|apply (Hc (BChar c) (d1 :: d :: s)); exact H].
      destruct (Z.eqb d 93); [congruence|]. destruct (Z.eqb d 92); [discriminate|apply Hc; exact H].
Qed.

Lemma parse_basic_app x s cs r : parse_basic s = Some (cs, r) -> parse_basic (s ++ x) = Some (cs, r ++ x).
Proof.
  assert (Hbr : forall t neg, match parse_br (length t) t true with Some (its, r2) => Some (CBr neg its, r2) | None => None end = Some (cs, r) ->
            match parse_br (length (t ++ x)) (t ++ x) true with Some (its, r2) => Some (CBr neg its, r2) | None => None end = Some (cs, r ++ x)).
  { intros t neg H. destruct (parse_br (length t) t true) as [[its r2]|] eqn:E; [|discriminate].
    rewrite app_length, (parse_br_app x _ _ _ _ _ E). injection H as <- <-. reflexivity. }
  destruct s as [|c s]; [discriminate|]. cbn [app parse_basic].
  destruct (Z.eqb c 92).
  - destruct s as [|y s]; [discriminate|]. cbn [app].
    repeat match goal with |- context [if ?b then _ else _] => destruct b end; congruence.
  - destruct (Z.eqb c 91).
    + destruct s as [|y s]; [discriminate|]. cbn [app]. destruct (Z.eqb y 94); [apply Hbr|apply (Hbr (y :: s))].
    + repeat match goal with |- context [if ?b then _ else _] => destruct b end; congruence.
Qed.

Lemma parse_atom_app x s cs r : parse_atom s = Some (cs, r) -> parse_atom (s ++ x) = Some (cs, r ++ x).
Proof.
  destruct s as [|c s]; [discriminate|]. cbn [app parse_atom].
  destruct (Z.eqb c 40); [|apply (parse_basic_app x (c :: s))]. unfold parse_alt.
  destruct (parse_basic s) as [[a1 [|c1 r1]]|] eqn:E1; try discriminate. rewrite (parse_basic_app x _ _ _ E1). cbn [app].
  destruct (Z.eqb c1 124); [|discriminate].
  destruct (parse_basic r1) as [[a2 [|c2 r2]]|] eqn:E2; try discriminate. rewrite (parse_basic_app x _ _ _ E2). cbn [app].
  destruct (Z.eqb c2 41); congruence.
Qed.

(* the text of a whole atom, and the set of characters it stands for *)
Definition atom_ok (cs : cset) (t : str) : Prop := parse_atom t = Some (cs, []).

Lemma atom_app cs t x : atom_ok cs t -> parse_atom (t ++ x) = Some (cs, x).
Proof. exact (parse_atom_app x t cs []). Qed.

(* an atom's first character is none of those that cannot start one: $ and ) which end a sequence, the quantifiers *)
Lemma atom_first cs c t k : atom_ok cs (c :: t) -> (forall t', parse_atom (k :: t') = None) -> Z.eqb c k = false.
Proof. intros H Hk. destruct (Z.eqb_spec c k) as [->|]; [unfold atom_ok in H; rewrite Hk in H; discriminate|reflexivity]. Qed.

Lemma atom_not_quant cs t x : atom_ok cs t -> starts_quant (t ++ x) = false.
Proof.
  destruct t as [|c t]; [discriminate|]. intro H. cbn [app starts_quant].
  rewrite (atom_first cs c t 42 H), (atom_first cs c t 43 H), (atom_first cs c t 63 H), (atom_first cs c t 123 H) by reflexivity.
  reflexivity.
Qed.

Lemma parse_seq_step fuel top cs t tail m M r2 rest r3 : atom_ok cs t ->
  parse_quant tail = Some (m, M, r2) ->
  parse_seq fuel top r2 = Some (rest, r3) ->
  parse_seq (S fuel) top (t ++ tail) = Some ({| i_set := cs; i_min := m; i_max := M |} :: rest, r3).
Proof.
  intros Hok Hq Hr. pose proof (atom_app cs t tail Hok) as Ha. destruct t as [|c t]; [discriminate Hok|].
  cbn [app parse_seq] in Ha |- *. rewrite (atom_first cs c t 36 Hok), (atom_first cs c t 41 Hok), Ha, Hq, Hr by reflexivity. reflexivity.
Qed.

Lemma not_meta_plain c : is_meta c = false -> atom_ok (CLit c) [c].
Proof.
  intro Hm. unfold atom_ok. cbn [parse_atom parse_basic]. rewrite Hm.
  rewrite !(memc_false_neq c metas _ Hm) by reflexivity. reflexivity.
Qed.

Lemma escaped_special c : memc c re_specials = true -> atom_ok (CLit c) [92; c].
Proof.
  intro Hs.
  pose proof (forallb_memc (fun k => negb (Z.eqb k 100) && negb (Z.eqb k 115) && negb (ascii_alnum k)) re_specials c
                ltac:(vm_compute; reflexivity) Hs) as H.
  apply andb_true_iff in H as [H H3]. apply andb_true_iff in H as [H1 H2].
  apply negb_true_iff in H1, H2, H3. unfold atom_ok. cbn [parse_atom parse_basic Z.eqb Pos.eqb].
  rewrite H1, H2, H3. reflexivity.
Qed.

Lemma not_special_not_meta c : memc c re_specials = false -> is_meta c = false.
Proof.
  intro H. unfold is_meta. destruct (memc c metas) eqn:E; [|reflexivity].
  pose proof (forallb_memc (fun k => memc k re_specials) metas c ltac:(vm_compute; reflexivity) E). congruence.
Qed.

Lemma unescapes_not_meta c : memc c unescapes = true -> is_meta c = false.
Proof.
  intro H. pose proof (forallb_memc (fun k => negb (is_meta k)) unescapes c ltac:(vm_compute; reflexivity) H) as Hn.
  apply negb_true_iff in Hn. exact Hn.
Qed.

Theorem escape_char_atom full c : atom_ok (CLit c) (escape_char full c).
Proof.
  unfold escape_char, re_escape_char. destruct full.
  - destruct (memc c re_specials) eqn:E; [apply escaped_special; exact E|apply not_meta_plain, not_special_not_meta; exact E].
  - destruct (memc c unescapes) eqn:Eu; [apply not_meta_plain, unescapes_not_meta; exact Eu|].
    destruct (memc c re_specials) eqn:E; [apply escaped_special; exact E|apply not_meta_plain, not_special_not_meta; exact E].
Qed.

Lemma read_digits_run ds : forall acc seen r,
  forallb is_09 ds = true -> match r with c :: _ => is_09 c = false | [] => True end -> ds <> [] \/ seen = true ->
  read_digits (ds ++ r) acc seen = (Some (fold_left (fun a c => a * 10 + (c - 48)) ds acc), r).
Proof.
  induction ds as [|d ds IH]; intros acc seen r Hd Hr Hs; cbn [app fold_left].
  - destruct Hs as [Hs | ->]; [congruence|]. destruct r as [|c r]; cbn [read_digits]; [reflexivity|]. rewrite Hr. reflexivity.
  - apply andb_true_iff in Hd as [Hd1 Hd2]. cbn [read_digits]. rewrite Hd1.
    apply IH; [exact Hd2|exact Hr|right; reflexivity].
Qed.

Lemma read_digits_dec n r : 0 <= n -> match r with c :: _ => is_09 c = false | [] => True end ->
  read_digits (dec_of_Z n ++ r) 0 false = (Some n, r).
Proof.
  intros Hn Hr. destruct (dec_of_Z_spec n Hn) as (Hne & Hd & Hu).
  rewrite (read_digits_run _ 0 false r Hd Hr (or_introl Hne)). unfold undec in Hu. rewrite Hu. reflexivity.
Qed.

(* quantify writes the atom, then either the atom again ({2} of a single character) or a quantifier *)
Definition written_twice (t : str) (m : Z) (M : option Z) : bool :=
  match M with Some M' => Z.eqb m M' && Z.eqb m 2 && Nat.eqb (length t) 1 | None => false end.

Definition quant_text (m : Z) (M : option Z) : str :=
  match M with
  | None => if Z.eqb m 0 then [42] else [43]
  | Some M' =>
    if Z.eqb m M' then (if Z.eqb m 1 then [] else [123] ++ dec_of_Z m ++ [125])
    else if Z.eqb m 0 && Z.eqb M' 1 then [63]
    else [123] ++ dec_of_Z m ++ [44] ++ dec_of_Z M' ++ [125]
  end.

(* the least count that the quantifier text stands for: '+' whenever the minimum is not 0 *)
Definition quant_min (m : Z) (M : option Z) : Z := match M with None => if Z.eqb m 0 then 0 else 1 | Some _ => m end.

Lemma quantify_eq t m M : quantify t m M = t ++ (if written_twice t m M then t else quant_text m M).
Proof.
  unfold quantify, written_twice, quant_text. destruct M as [M'|]; [|destruct (Z.eqb m 0); reflexivity].
  destruct (Z.eqb m M'); cbn [andb]; [|destruct (Z.eqb m 0 && Z.eqb M' 1); reflexivity].
  destruct (Z.eqb_spec m 1) as [->|_]; [rewrite app_nil_r; reflexivity|].
  destruct (Z.eqb m 2 && Nat.eqb (length t) 1); reflexivity.
Qed.

Lemma written_twice_true t m M : written_twice t m M = true -> m = 2 /\ M = Some 2.
Proof.
  unfold written_twice. destruct M as [M'|]; [|discriminate]. intro H.
  apply andb_true_iff in H as [H _]. apply andb_true_iff in H as [H1 H2]. apply Z.eqb_eq in H1, H2. subst. split; reflexivity.
Qed.

Lemma parse_quant_plain s : starts_quant s = false -> parse_quant s = Some (1, Some 1, s).
Proof.
  destruct s as [|c s]; [reflexivity|]. cbn [starts_quant parse_quant]. intro H.
  apply orb_false_elim in H as [H H123]. apply orb_false_elim in H as [H H63]. apply orb_false_elim in H as [H42 H43].
  rewrite H42, H43, H63, H123. reflexivity.
Qed.

Lemma parse_quant_text m M rest : quant_okb m M = true -> starts_quant rest = false ->
  parse_quant (quant_text m M ++ rest) = Some (quant_min m M, M, rest).
Proof.
  intros Hq Hsq. apply andb_true_iff in Hq as [Hm HM]. apply Z.leb_le in Hm. unfold quant_text, quant_min. destruct M as [M'|].
  - apply Z.leb_le in HM. destruct (Z.eqb_spec m M') as [<-|_].
    + destruct (Z.eqb m 1) eqn:E1; [apply Z.eqb_eq in E1; subst m; apply parse_quant_plain; exact Hsq|].
      rewrite <- !app_assoc. cbn [app parse_quant Z.eqb Pos.eqb]. rewrite (read_digits_dec m (125 :: rest) Hm eq_refl).
      cbn [Z.eqb Pos.eqb]. rewrite Hsq. reflexivity.
    + destruct (Z.eqb m 0 && Z.eqb M' 1) eqn:E.
      * apply andb_true_iff in E as [E0 E1]. apply Z.eqb_eq in E0, E1. subst m M'.
        cbn [app parse_quant Z.eqb Pos.eqb]. rewrite Hsq. reflexivity.
      * rewrite <- !app_assoc. cbn [app parse_quant Z.eqb Pos.eqb]. rewrite (read_digits_dec m (44 :: dec_of_Z M' ++ 125 :: rest) Hm eq_refl).
        cbn [Z.eqb Pos.eqb]. rewrite (read_digits_dec M' (125 :: rest) HM eq_refl). cbn [Z.eqb Pos.eqb]. rewrite Hsq. reflexivity.
  - destruct (Z.eqb m 0); cbn [app parse_quant Z.eqb Pos.eqb]; rewrite Hsq; reflexivity.
Qed.

Definition once (cs : cset) : item := {| i_set := cs; i_min := 1; i_max := Some 1 |}.

(* the items that the text of a quantified atom parses to *)
Definition quant_items (cs : cset) (t : str) (m : Z) (M : option Z) : list item :=
  if written_twice t m M then [once cs; once cs] else [{| i_set := cs; i_min := quant_min m M; i_max := M |}].

Lemma count_ok_quant_min m M n : count_ok (quant_min m M) M n <-> count_ok m M n.
Proof.
  destruct M as [M'|]; cbn [quant_min count_ok]; [reflexivity|]. destruct (Z.eqb_spec m 0) as [->|Hne]; [tauto|].
  split; intros [H|H]; try (right; exact H); [discriminate|contradiction].
Qed.

Lemma quant_items_lang ct cs t m M s :
  lang ct (quant_items cs t m M) s <-> forallb (sem_cset ct cs) s = true /\ count_ok m M (length s).
Proof.
  unfold quant_items. destruct (written_twice t m M) eqn:E.
  - apply written_twice_true in E as [-> ->]. change [once cs; once cs] with ([once cs] ++ [once cs]). split.
    + intro H. apply lang_app_iff in H as (s1 & s2 & -> & H1 & H2). apply lang_single_iff in H1 as [A1 C1], H2 as [A2 C2].
      cbn [once i_set i_min i_max count_ok] in *. rewrite forallb_app, A1, A2, app_length. split; [reflexivity|lia].
    + intros [A C]. cbn [count_ok] in C. destruct s as [|a [|b [|c s]]]; cbn [length] in C; try lia.
      apply andb_true_iff in A as [Aa Ab]. apply lang_app_iff. exists [a], [b]. split; [reflexivity|].
      split; apply lang_single_iff; cbn [once i_set i_min i_max count_ok forallb length]; (split; [|lia]).
      * rewrite Aa. reflexivity.
      * exact Ab.
  - apply (iff_trans (lang_single_iff ct _ s)).
    split; intros [A C]; (split; [exact A|apply count_ok_quant_min; exact C]).
Qed.

Lemma parse_seq_mono f : forall top s r, parse_seq f top s = Some r -> forall k, parse_seq (f + k) top s = Some r.
Proof.
  induction f as [|f IH]; intros top s r H k; [discriminate|]. cbn [Nat.add parse_seq] in *.
  destruct s as [|c s]; [discriminate|].
  destruct (Z.eqb c 36); [exact H|]. destruct (Z.eqb c 41); [exact H|].
  destruct (parse_atom (c :: s)) as [[cs r1]|].
  - destruct (parse_quant r1) as [[[m M] r2]|]; [|discriminate].
    destruct (parse_seq f top r2) as [[rest r3]|] eqn:E; [|discriminate]. rewrite (IH _ _ _ E k). exact H.
  - destruct (Z.eqb c 40 && top); [|discriminate].
    destruct (parse_seq f false s) as [[inner r1]|] eqn:E1; [|discriminate]. rewrite (IH _ _ _ E1 k).
    destruct (starts_quant r1); [discriminate|].
    destruct (parse_seq f true r1) as [[rest r2]|] eqn:E2; [|discriminate]. rewrite (IH _ _ _ E2 k). exact H.
Qed.

Lemma parse_seq_ge f f' top s r : parse_seq f top s = Some r -> (f <= f')%nat -> parse_seq f' top s = Some r.
Proof. intros H Hle. replace f' with (f + (f' - f))%nat by lia. apply parse_seq_mono. exact H. Qed.

(* part is a piece of an expression that parses to its: before any continuation that does not start with a
   quantifier it adds its items to the continuation's, and the whole does not start with a quantifier either *)
Definition prefix_parses (top : bool) (part : str) (its : list item) : Prop :=
  forall fuel rest irest rend, starts_quant rest = false -> parse_seq fuel top rest = Some (irest, rend) ->
    parse_seq (length part + fuel) top (part ++ rest) = Some (its ++ irest, rend) /\ starts_quant (part ++ rest) = false.

Lemma prefix_parses_nil top : prefix_parses top [] [].
Proof. intros fuel rest irest rend Hsq Hr. split; assumption. Qed.

Lemma prefix_parses_app top p1 p2 i1 i2 : prefix_parses top p1 i1 -> prefix_parses top p2 i2 -> prefix_parses top (p1 ++ p2) (i1 ++ i2).
Proof.
  intros H1 H2 fuel rest irest rend Hsq Hr. destruct (H2 _ _ _ _ Hsq Hr) as [P2 Q2]. destruct (H1 _ _ _ _ Q2 P2) as [P1 Q1].
  rewrite app_length, <- !app_assoc, <- Nat.add_assoc. split; assumption.
Qed.

Lemma prefix_parses_quant top cs t m M : atom_ok cs t -> quant_okb m M = true ->
  prefix_parses top (t ++ quant_text m M) [{| i_set := cs; i_min := quant_min m M; i_max := M |}].
Proof.
  intros Hok Hq fuel rest irest rend Hsq Hr. rewrite <- app_assoc. split; [|apply (atom_not_quant cs); exact Hok].
  apply (parse_seq_ge (S fuel)).
  - apply (parse_seq_step _ _ cs t _ (quant_min m M) M rest); [exact Hok|apply parse_quant_text; assumption|exact Hr].
  - rewrite app_length. destruct t; [discriminate Hok|cbn [length]; lia].
Qed.

Lemma prefix_parses_plain top cs t : atom_ok cs t -> prefix_parses top t [once cs].
Proof. intro H. rewrite <- (app_nil_r t). exact (prefix_parses_quant top cs t 1 (Some 1) H eq_refl). Qed.

Lemma prefix_parses_atom top cs t m M : atom_ok cs t -> quant_okb m M = true -> prefix_parses top (quantify t m M) (quant_items cs t m M).
Proof.
  intros Hok Hq. rewrite quantify_eq. unfold quant_items. destruct (written_twice t m M).
  - apply (prefix_parses_app top t t [once cs] [once cs]); apply prefix_parses_plain; exact Hok.
  - apply prefix_parses_quant; assumption.
Qed.

Definition ws_item : item := {| i_set := CSpace; i_min := 0; i_max := None |}.

Lemma parse_seq_group f body inner r1 rest r2 :
  parse_atom (40 :: body) = None ->
  parse_seq f false body = Some (inner, r1) -> starts_quant r1 = false -> parse_seq f true r1 = Some (rest, r2) ->
  parse_seq (S f) true (40 :: body) = Some (inner ++ rest, r2).
Proof. intros Hn H1 Hq H2. cbn [parse_seq Z.eqb Pos.eqb andb]. rewrite Hn, H1, Hq, H2. reflexivity. Qed.

(* a capture group around a piece that is not the inside of an alternation *)
Lemma prefix_parses_group body its : prefix_parses false body its -> (forall rest, parse_atom (40 :: body ++ 41 :: rest) = None) ->
  prefix_parses true ([40] ++ body ++ [41]) its.
Proof.
  intros Hb Hn fuel rest irest rend Hsq Hr. split; [|reflexivity].
  destruct (Hb (S fuel) (41 :: rest) [] rest eq_refl eq_refl) as [Hin _]. rewrite app_nil_r in Hin.
  cbn [app length Nat.add]. rewrite <- app_assoc, app_length. cbn [app length].
  replace (length body + 1 + fuel)%nat with (length body + S fuel)%nat by lia.
  apply (parse_seq_group _ _ its rest irest rend (Hn rest) Hin Hsq). apply (parse_seq_ge fuel); [exact Hr|lia].
Qed.

(* '(' followed by a quantified atom and ')' is not an alternation: what follows the atom is never '|' *)
Lemma wrapped_not_atom cs t m M rest : atom_ok cs t -> parse_atom (40 :: quantify t m M ++ 41 :: rest) = None.
Proof.
  intro Hok. rewrite quantify_eq, <- app_assoc. cbn [parse_atom Z.eqb Pos.eqb]. unfold parse_alt.
  pose proof (atom_app cs t ((if written_twice t m M then t else quant_text m M) ++ 41 :: rest) Hok) as Ha.
  destruct t as [|c t]; [discriminate|]. cbn [app parse_atom] in *.
  destruct (Z.eqb_spec c 40) as [->|_]; [reflexivity|]. rewrite Ha. destruct (written_twice (c :: t) m M).
  - cbn [app]. destruct (Z.eqb_spec c 124) as [->|_]; [discriminate Ha|reflexivity].
  - unfold quant_text. destruct M as [M'|]; repeat match goal with |- context [if ?b then _ else _] => destruct b end; reflexivity.
Qed.

Lemma prefix_parses_literal top full s : prefix_parses top (escape full s) (map (fun c => once (CLit c)) s).
Proof.
  induction s as [|c s IH]; [apply prefix_parses_nil|].
  apply (prefix_parses_app top _ _ [once (CLit c)]); [apply prefix_parses_plain, escape_char_atom|exact IH].
Qed.

Lemma lang_literal ct w : forall s, lang ct (map (fun c => once (CLit c)) w) s <-> s = w.
Proof.
  induction w as [|c w IH]; intro s; cbn [map]; [apply lang_nil_iff|]. split.
  - intro H. apply lang_cons_iff in H as (s1 & s2 & -> & Ha & Hc & Hr). apply IH in Hr. subst s2. cbn [once i_set i_min i_max count_ok] in *.
    destruct s1 as [|x [|y s1]]; cbn [length] in Hc; try lia. apply andb_true_iff in Ha as [Ha _].
    apply Z.eqb_eq in Ha. subst x. reflexivity.
  - intros ->. change (c :: w) with ([c] ++ w). constructor; [cbn; rewrite Z.eqb_refl; reflexivity|cbn; lia|apply IH; reflexivity].
Qed.

(* the order in which escaped_bracket writes a set of characters *)
Definition bracket_order (chars : str) : str :=
  (if memc 93 chars then [93] else []) ++ filter (fun c => negb (memc c bracket_specials)) chars ++
  (if memc 92 chars then [92] else []) ++ (if memc 94 chars then [94] else []) ++ (if memc 45 chars then [45] else []).

Lemma bracket_order_In chars x : In x (bracket_order chars) <-> In x chars.
Proof.
  assert (Hin : forall k, In x (if memc k chars then [k] else []) -> In x chars).
  { intro k. destruct (memc k chars) eqn:E; [intros [<-|[]]; apply memc_In, E|intros []]. }
  assert (Hout : In x chars -> In x (if memc x chars then [x] else [])).
  { intro H. apply memc_In in H. rewrite H. left. reflexivity. }
  unfold bracket_order. split; intro H.
  - repeat (apply in_app_or in H as [H|H]); try exact (Hin _ H). apply filter_In in H. apply H.
  - destruct (memc x bracket_specials) eqn:E.
    + apply memc_In in E. destruct E as [<-|[<-|[<-|[<-|[]]]]].
      * apply in_or_app. left. exact (Hout H).
      * do 2 (apply in_or_app; right). apply in_or_app. left. exact (Hout H).
      * do 4 (apply in_or_app; right). exact (Hout H).
      * do 3 (apply in_or_app; right). apply in_or_app. left. exact (Hout H).
    + apply in_or_app. right. apply in_or_app. left. apply filter_In. split; [exact H|rewrite E; reflexivity].
Qed.

Lemma memc_bracket_order c chars : memc c (bracket_order chars) = memc c chars.
Proof. apply memc_iff. split; intro H; [apply memc_In, bracket_order_In, H|apply bracket_order_In, memc_In, H]. Qed.

Lemma br_chars_sem ct l c : existsb (fun b => sem_britem ct b c) (map BChar l) = memc c l.
Proof.
  unfold memc. induction l as [|x l IH]; cbn [map existsb sem_britem]; [reflexivity|]. rewrite IH, (Z.eqb_sym x c). reflexivity.
Qed.

Lemma parse_br_first f c r : Z.eqb c 93 = false -> parse_br (S f) (c :: r) true = parse_br (S f) (c :: r) false.
Proof. intro H. cbn [parse_br]. rewrite H. reflexivity. Qed.

Lemma parse_br_plain f c d1 r its x : Z.eqb c 93 = false -> Z.eqb c 92 = false -> Z.eqb d1 45 = false ->
  parse_br f (d1 :: r) false = Some (its, x) ->
  parse_br (S f) (c :: d1 :: r) false = Some (BChar c :: its, x).
Proof.
  intros H93 H92 Hd H. cbn [parse_br]. rewrite H93, H92. destruct r as [|d r']; [rewrite H; reflexivity|].
  rewrite Hd, H. reflexivity.
Qed.

(* what stands between the brackets: characters written as they are or after a backslash, then possibly a dash *)
Inductive tok := TPlain (c : Z) | TEsc (c : Z).
Definition tok_text (t : tok) : str := match t with TPlain c => [c] | TEsc c => [92; c] end.
Definition tok_char (t : tok) : Z := match t with TPlain c | TEsc c => c end.
Definition tok_ok (t : tok) : Prop :=
  match t with
  | TPlain c => Z.eqb c 93 = false /\ Z.eqb c 92 = false /\ Z.eqb c 45 = false
  | TEsc c => Z.eqb c 87 = false /\ Z.eqb c 115 = false /\ ascii_alnum c = false
  end.
Definition closing (dash : bool) : str := (if dash then [45] else []) ++ [93].

Lemma parse_br_toks dash ts : Forall tok_ok ts -> forall f, (length ts + length (closing dash) <= f)%nat ->
  parse_br f (flat_map tok_text ts ++ closing dash) false =
  Some (map (fun t => BChar (tok_char t)) ts ++ map BChar (if dash then [45] else []), []).
Proof.
  induction 1 as [|t ts Ht Hts IH]; intros f Hf.
  - destruct dash, f as [|[|f]]; cbn [length closing app Nat.add] in Hf; try lia; reflexivity.
  - destruct f as [|f]; cbn [length Nat.add] in Hf; [lia|]. specialize (IH f ltac:(lia)).
    cbn [flat_map map]. destruct t as [c|c]; cbn [tok_text tok_char app].
    + destruct Ht as (H93 & H92 & _). destruct ts as [|t' ts'].
      * (* the last character: the dash after it is not a range *)
        cbn [flat_map app map] in *. cbn [parse_br]. rewrite H93, H92. destruct dash; [reflexivity|].
        cbn [closing] in *. rewrite IH. reflexivity.
      * assert (Hd : exists d r, flat_map tok_text (t' :: ts') ++ closing dash = d :: r /\ Z.eqb d 45 = false).
        { inversion Hts as [|? ? Ht' _]. destruct t' as [c'|c']; cbn [flat_map tok_text app]; eexists; eexists.
          - split; [reflexivity|apply Ht'].
          - split; reflexivity. }
        destruct Hd as (d & r & E & Hd). rewrite E in *. apply parse_br_plain; assumption.
    + destruct Ht as (H87 & H115 & Ha). cbn [parse_br Z.eqb Pos.eqb]. rewrite H87, H115, Ha, IH. reflexivity.
Qed.

Lemma toks_length ts : (length ts <= length (flat_map tok_text ts))%nat.
Proof. induction ts as [|[c|c] ts IH]; cbn [flat_map tok_text length app]; lia. Qed.

Lemma flat_map_plain l : flat_map tok_text (map TPlain l) = l.
Proof. induction l as [|c l IH]; cbn [map flat_map tok_text app]; [|rewrite IH]; reflexivity. Qed.

(* what escaped_bracket writes after a leading ']' or a first plain member: the caret is not escaped *)
Lemma parse_br_body mains (b92 b94 b45 : bool) f :
  Forall (fun c => memc c bracket_specials = false) mains ->
  let body := mains ++ ((if b92 then [92; 92] else []) ++ (if b94 then [94] else []) ++ (if b45 then [45] else [])) ++ [93] in
  (length body <= f)%nat ->
  parse_br f body false =
  Some (map BChar (mains ++ (if b92 then [92] else []) ++ (if b94 then [94] else []) ++ (if b45 then [45] else [])), []).
Proof.
  intros Hm body Hf.
  set (ts := map TPlain mains ++ (if b92 then [TEsc 92] else []) ++ (if b94 then [TPlain 94] else [])).
  assert (Eb : body = flat_map tok_text ts ++ closing b45).
  { unfold body, ts, closing. rewrite !flat_map_app, flat_map_plain, <- !app_assoc. destruct b92, b94; reflexivity. }
  assert (Ei : map BChar (mains ++ (if b92 then [92] else []) ++ (if b94 then [94] else []) ++ (if b45 then [45] else [])) =
               map (fun t => BChar (tok_char t)) ts ++ map BChar (if b45 then [45] else [])).
  { unfold ts. rewrite !map_app, map_map, <- !app_assoc. destruct b92, b94; reflexivity. }
  rewrite Ei, Eb. apply parse_br_toks.
  - apply Forall_app. split; [|destruct b92, b94; repeat constructor].
    apply Forall_map. refine (Forall_impl _ _ Hm). intros c Hc.
    repeat split; apply (memc_false_neq c bracket_specials _ Hc); reflexivity.
  - rewrite Eb, app_length in Hf. pose proof (toks_length ts). lia.
Qed.

Theorem bracket_atom chars : chars <> [] -> atom_ok (CBr false (map BChar (bracket_order chars))) (escaped_bracket false chars).
Proof.
  intro Hne.
  assert (Hplain : Forall (fun c => memc c bracket_specials = false) (filter (fun c => negb (memc c bracket_specials)) chars)).
  { apply Forall_forall. intros c Hc. apply filter_In in Hc as [_ Hn]. apply negb_true_iff. exact Hn. }
  unfold atom_ok, escaped_bracket, bracket_order. cbn [negb andb app].
  destruct (memc 93 chars) eqn:E93; [|destruct (filter _ chars) as [|m0 ms] eqn:Em].
  - (* ']' comes first *)
    cbn [app parse_atom parse_basic Z.eqb Pos.eqb length parse_br]. rewrite parse_br_body; [reflexivity|exact Hplain|lia].
  - (* nothing but specials: whichever comes first is not read as a negation *)
    destruct (memc 92 chars) eqn:E92, (memc 94 chars) eqn:E94, (memc 45 chars) eqn:E45; try reflexivity.
    destruct chars as [|c0 chars0]; [congruence|]. pose proof (proj2 (bracket_order_In (c0 :: chars0) c0) (or_introl eq_refl)) as Hc0.
    unfold bracket_order in Hc0. rewrite E93, Em, E92, E94, E45 in Hc0. destruct Hc0.
  - (* a plain member first: it is not '^' *)
    inversion Hplain as [|? ? Hm0 _].
    cbn [app parse_atom parse_basic Z.eqb Pos.eqb]. rewrite (memc_false_neq m0 bracket_specials 94 Hm0 eq_refl).
    cbn [length]. rewrite parse_br_first by exact (memc_false_neq m0 bracket_specials 93 Hm0 eq_refl).
    pose proof (parse_br_body (m0 :: ms) (memc 92 chars) (memc 94 chars) (memc 45 chars) _ Hplain (le_n _)) as Hb.
    cbn [app length] in Hb. rewrite Hb. reflexivity.
Qed.

Lemma norm_extras_in8 x : In (norm_extras x) extras8.
Proof.
  apply mem_str_In. unfold norm_extras. cbn [filter]. destruct (memc 95 x), (memc 46 x), (memc 45 x); reflexivity.
Qed.

Lemma punct_set_sem e c : memc c (punct_chars e) = punct_sem e c.
Proof.
  apply memc_iff. unfold punct_chars. split; [intro H; apply filter_In in H; apply H|]. intro Ep. apply filter_In.
  split; [|exact Ep]. unfold punct_sem, between in Ep. apply andb_true_iff in Ep as [Ep _]. apply andb_true_iff in Ep as [Eb _].
  apply andb_true_iff in Eb as [H1 H2]. apply Z.leb_le in H1, H2. apply in_map_iff. exists (Z.to_nat c). split; [lia|apply in_seq; lia].
Qed.

(* the character set that each category's expression denotes: ranges and specials first, then single characters *)
Definition bracket_cset (neg : bool) (its : list britem) (chars : str) : cset := CBr neg (its ++ map BChar chars).

Definition u_alnum_cset (e : str) (digits : bool) : cset :=
  let r := bracket_cset true (BNotWord :: if digits then [] else [BRange 48 57]) (el_exc e) in
  match el_inc e with
  | [] => r
  | [x] => CUnion r (CLit x)
  | inc => CUnion r (bracket_cset false [] (bracket_order inc))
  end.

Definition class_cset (out : bool) (e : str) (code : Z) : cset :=
  if Z.eqb code cA then bracket_cset false [BRange 65 90] []
  else if Z.eqb code ca then bracket_cset false [BRange 97 122] []
  else if Z.eqb code cL then bracket_cset false [BRange 65 90; BRange 97 122] []
  else if Z.eqb code cUL then bracket_cset true [BNotWord; BRange 48 57] [95]
  else if Z.eqb code cB then bracket_cset false [BRange 65 90] e
  else if Z.eqb code cb then bracket_cset false [BRange 97 122] e
  else if Z.eqb code cM then bracket_cset false [BRange 65 90; BRange 97 122] e
  else if Z.eqb code cUM then u_alnum_cset e false
  else if Z.eqb code cD then (if out then bracket_cset false [BRange 48 57] [] else CDigit)
  else if Z.eqb code ch then bracket_cset false [BRange 48 57; BRange 97 102] []
  else if Z.eqb code cH then bracket_cset false [BRange 48 57; BRange 65 70] []
  else if Z.eqb code cX then bracket_cset false [BRange 48 57; BRange 97 102; BRange 65 70] []
  else if Z.eqb code cN then bracket_cset false [BRange 65 90; BRange 48 57] e
  else if Z.eqb code cn then bracket_cset false [BRange 97 122; BRange 48 57] e
  else if Z.eqb code cC then bracket_cset false [BRange 65 90; BRange 97 122; BRange 48 57] e
  else if Z.eqb code cUC then u_alnum_cset e true
  else if Z.eqb code cWS then CSpace
  else if Z.eqb code cP then bracket_cset false [] (bracket_order (punct_chars e))
  else if Z.eqb code cO then bracket_cset true [BRange 33 126; BSpace] []
  else if Z.eqb code cAny then CAny
  else bracket_cset false [] [].

Lemma sem_br ct neg its chars c :
  sem_cset ct (bracket_cset neg its chars) c =
  let b := existsb (fun b => sem_britem ct b c) its || memc c chars in if neg then negb b else b.
Proof. unfold bracket_cset. cbn [sem_cset]. rewrite existsb_app, br_chars_sem. destruct neg; [apply xorb_true_l|apply xorb_false_l]. Qed.

Lemma sem_u_alnum ct e digits c :
  sem_cset ct (u_alnum_cset e digits) c =
  (if digits then is_word ct c else is_word ct c && negb (is_09 c)) && negb (memc c (el_exc e)) || memc c (el_inc e).
Proof.
  assert (Hr : sem_cset ct (bracket_cset true (BNotWord :: if digits then [] else [BRange 48 57]) (el_exc e)) c =
               (if digits then is_word ct c else is_word ct c && negb (is_09 c)) && negb (memc c (el_exc e))).
  { rewrite sem_br. destruct digits; cbn [existsb sem_britem orb]; rewrite ?orb_false_r, !negb_orb, negb_involutive; reflexivity. }
  unfold u_alnum_cset. destruct (el_inc e) as [|x [|y inc]]; cbn [sem_cset]; rewrite Hr.
  - rewrite orb_false_r. reflexivity.
  - cbn [memc existsb]. rewrite orb_false_r, (Z.eqb_sym x c). reflexivity.
  - rewrite sem_br. rewrite memc_bracket_order. reflexivity.
Qed.

Lemma if_congr {A B} (f : A -> B) (b : bool) x y x' y' : f x = x' -> f y = y' -> f (if b then x else y) = if b then x' else y'.
Proof. intros <- <-. destruct b; reflexivity. Qed.

(* class_cset and cat_sem branch on the same tests: they are compared branch by branch *)
Theorem class_cset_sem ct out e code c : sem_cset ct (class_cset out e code) c = cat_sem ct out e code c.
Proof.
  unfold class_cset, cat_sem. repeat apply (if_congr (fun cs => sem_cset ct cs c)).
  all: rewrite ?sem_br, ?sem_u_alnum; cbn [existsb sem_britem orb memc sem_cset];
    rewrite ?orb_false_r, ?negb_orb, ?negb_involutive, ?orb_assoc; try reflexivity.
  - destruct e; [cbn; rewrite !orb_false_r|]; reflexivity.
  - rewrite memc_bracket_order. apply punct_set_sem.
Qed.

(* The texts of the categories parse to these sets.  Eleven categories are written without the extra letters, so their
   text is evaluated once, for a variable e; eight do not depend on the rendering, and are evaluated for each of the
   eight sets of extra letters; the punctuation class is a bracket over a set of characters (bracket_atom). *)
Definition plain_codes : list Z := [cA; ca; cL; cUL; cD; ch; cH; cX; cWS; cO; cAny].
Definition lettered_codes : list Z := [cB; cb; cM; cUM; cN; cn; cC; cUC].

Definition parses_as (out : bool) (e : str) (code : Z) : Prop :=
  forall t, cat_re out e code = Some t -> atom_ok (class_cset out e code) t.

(* the form in which it is evaluated *)
Lemma parses_as_check out e code :
  match cat_re out e code with Some t => parse_atom t = Some (class_cset out e code, []) | None => True end ->
  parses_as out e code.
Proof. intros H t Ht. rewrite Ht in H. exact H. Qed.

Lemma plain_texts_parse out e : Forall (parses_as out e) plain_codes.
Proof. repeat (apply Forall_cons || apply Forall_nil); apply parses_as_check; destruct out; vm_compute; reflexivity. Qed.

(* B, b and M have no text when there are no extra letters *)
Lemma lettered_texts_parse out : Forall (fun e => Forall (parses_as out e) lettered_codes) extras8.
Proof.
  repeat (apply Forall_cons || apply Forall_nil); apply parses_as_check; vm_compute; first [reflexivity|exact I].
Qed.

Lemma punct_chars_nonempty e : In e extras8 -> punct_chars e <> [].
Proof.
  intro He. assert (Hin : In 33 (punct_chars e)).
  { apply memc_In. rewrite punct_set_sem. cbn in He.
    destruct He as [<-|[<-|[<-|[<-|[<-|[<-|[<-|[<-|[]]]]]]]]]; reflexivity. }
  intro E. rewrite E in Hin. destruct Hin.
Qed.

Lemma class_text_parses out e code t : In e extras8 -> In code all_codes -> cat_re out e code = Some t ->
  atom_ok (class_cset out e code) t.
Proof.
  intros He Hc. revert t. change (parses_as out e code).
  apply (proj1 (forallb_forall (fun c => memc c (plain_codes ++ lettered_codes ++ [cP])) all_codes) eq_refl) in Hc.
  apply memc_In, in_app_or in Hc as [Hc|Hc]; [|apply in_app_or in Hc as [Hc|[<-|[]]]].
  - exact (proj1 (Forall_forall _ _) (plain_texts_parse out e) code Hc).
  - exact (proj1 (Forall_forall _ _) (proj1 (Forall_forall _ _) (lettered_texts_parse out) e He) code Hc).
  - intros t Ht. injection Ht as <-. exact (bracket_atom _ (punct_chars_nonempty e He)).
Qed.

(* every atom but a literal string of several (or no) characters stands for one set of characters *)
Definition is_set_atom (a : atom) : bool := match a with ALit [_] => true | ALit _ => false | _ => true end.

Definition padded (stripped : bool) (its : list item) : list item :=
  if stripped then ws_item :: its ++ [ws_item] else its.

Lemma lang_incl_padded ct stripped its s : lang ct its s -> lang ct (padded stripped its) s.
Proof.
  intro H. destruct stripped; [|exact H]. change s with ([] ++ s). constructor; [reflexivity|left; reflexivity|].
  apply lang_app_iff. exists s, []. rewrite app_nil_r. split; [reflexivity|]. split; [exact H|].
  apply lang_single_iff. split; [reflexivity|left; reflexivity].
Qed.

Lemma anchored_parses body its : prefix_parses true body its -> parse_regex ([94] ++ body ++ [36]) = Some its.
Proof.
  intro H. destruct (H 1%nat [36] [] [] eq_refl eq_refl) as [Hp _]. unfold parse_regex. cbn [app Z.eqb Pos.eqb].
  rewrite (parse_seq_ge _ (S (length (body ++ [36]))) _ _ _ Hp) by (rewrite app_length; cbn [length]; lia).
  rewrite app_nil_r. reflexivity.
Qed.

Section WithOut.
Variable out : bool.   (* false: the expressions as used while extracting; true: the portable re-rendering *)

Lemma pred_sem_iff ct e f cs p : atom_pred ct out e (f_atom f) = Some p -> (forall x, sem_cset ct cs x = p x) ->
  forall s, frag_matches ct out e f s <-> forallb (sem_cset ct cs) s = true /\ count_ok (f_min f) (f_max f) (length s).
Proof.
  intros Hp Hx s. unfold frag_matches. rewrite Hp, (forallb_ext _ _ s Hx). reflexivity.
Qed.

Lemma single_fragment e full f t : In e extras8 -> frag_renderable e f = true -> is_set_atom (f_atom f) = true ->
  atom_text out full e (f_atom f) = Ok t ->
  exists cs, atom_ok cs t /\ quant_okb (f_min f) (f_max f) = true /\
    forall ct s, frag_matches ct out e f s <-> forallb (sem_cset ct cs) s = true /\ count_ok (f_min f) (f_max f) (length s).
Proof.
  intros He Hr Hs Ht. destruct f as [a m M]. unfold frag_renderable in Hr. cbn [f_atom f_min f_max] in Hr, Hs, Ht.
  destruct a as [w|c|code|cs]; cbn [atom_text] in Ht.
  - destruct w as [|c [|? ?]]; try discriminate. injection Ht as <-. exists (CLit c).
    split; [unfold escape; cbn [flat_map]; rewrite app_nil_r; apply escape_char_atom|]. split; [exact Hr|].
    intros ct s. apply (pred_sem_iff ct e _ (CLit c) (Z.eqb c)); reflexivity.
  - apply andb_true_iff in Hr as [Hc Hq]. injection Ht as <-. destruct (Z.eqb_spec c 46) as [->|Hne].
    + exists CAny. split; [reflexivity|]. split; [exact Hq|].
      intros ct s. apply (pred_sem_iff ct e _ CAny (raw_sem 46)); reflexivity.
    + exists (CLit c). split; [apply not_meta_plain, negb_true_iff, Hc|]. split; [exact Hq|].
      intros ct s. apply (pred_sem_iff ct e _ (CLit c) (raw_sem c)); [reflexivity|].
      intro x. unfold raw_sem. apply Z.eqb_neq in Hne. rewrite Hne. apply Z.eqb_sym.
  - apply andb_true_iff in Hr as [Hc Hq]. apply andb_true_iff in Hc as [Hc _]. apply memc_In in Hc.
    destruct (cat_re out e code) as [t0|] eqn:Ht0; [|discriminate]. injection Ht as <-. exists (class_cset out e code).
    split; [exact (class_text_parses out e code t0 He Hc Ht0)|]. split; [exact Hq|].
    intros ct s. apply (pred_sem_iff ct e _ _ (cat_sem ct out e code)); [reflexivity|]. intro x. apply class_cset_sem.
  - apply andb_true_iff in Hr as [Hc Hq]. injection Ht as <-. exists (CBr false (map BChar (bracket_order cs))).
    split; [apply bracket_atom; destruct cs; discriminate|]. split; [exact Hq|].
    intros ct s. apply (pred_sem_iff ct e _ _ (fun x => memc x cs)); [reflexivity|].
    intro x. cbn [sem_cset]. rewrite xorb_false_l, br_chars_sem. apply memc_bracket_order.
Qed.

Theorem fragment_part e full tagged f part : In e extras8 ->
  frag_renderable e f = true -> fragment2re out full e tagged f = Ok part ->
  exists its, prefix_parses true part its /\ forall ct s, frag_matches ct out e f s <-> lang ct its s.
Proof.
  intros He Hr Hp. unfold fragment2re in Hp.
  destruct (atom_text out full e (f_atom f)) as [t|err] eqn:Ea; cbn [bind] in Hp; [|discriminate]. injection Hp as <-.
  destruct (is_set_atom (f_atom f)) eqn:Hs.
  - destruct (single_fragment e full f t He Hr Hs Ea) as (cs & Hok & Hq & Hsem).
    exists (quant_items cs t (f_min f) (f_max f)).
    split; [|intros ct s; exact (iff_trans (Hsem ct s) (iff_sym (quant_items_lang ct cs t _ _ s)))].
    destruct (tagged && negb (f_fixed f)); [|apply prefix_parses_atom; assumption].
    unfold capture_group. destruct (startswith _ _ && endswith _ _); [apply prefix_parses_atom; assumption|].
    apply prefix_parses_group; [apply prefix_parses_atom; assumption|intro rest; exact (wrapped_not_atom cs t _ _ rest Hok)].
  - (* a literal string of several (or no) characters: written once, never in a group *)
    destruct f as [a m M]. unfold frag_renderable in Hr. cbn [f_atom f_min f_max f_fixed] in *.
    destruct a as [w| | |]; try discriminate. injection Ea as <-.
    assert (Hw : Z.eqb m 1 && opt_Z_eqb M 1 = true /\ forall ct, atom_pred ct out e (ALit w) = None)
      by (destruct w as [|? [|? ?]]; [split; [exact Hr|reflexivity]|discriminate|split; [exact Hr|reflexivity]]).
    destruct Hw as [Hr' Hn]. apply andb_true_iff in Hr' as [H1 H2]. apply Z.eqb_eq in H1. destruct M as [M'|]; [|discriminate].
    apply Z.eqb_eq in H2. subst m M'. rewrite andb_false_r. change (quantify (escape full w) 1 (Some 1)) with (escape full w).
    exists (map (fun c => once (CLit c)) w). split; [apply prefix_parses_literal|].
    intros ct s. unfold frag_matches. rewrite Hn, lang_literal. cbn [f_atom f_min f_max]. tauto.
Qed.

Lemma fragments_parts e full tagged : In e extras8 -> forall frags parts,
  forallb (frag_renderable e) frags = true -> mapM (fragment2re out full e tagged) frags = Ok parts ->
  exists its, prefix_parses true (concat parts) its /\ forall ct s, matches_frags ct out e frags s <-> lang ct its s.
Proof.
  intro He. induction frags as [|f frags IH]; intros parts Hr Hm; cbn [mapM forallb] in *.
  - injection Hm as <-. exists []. split; [apply prefix_parses_nil|]. intros ct s.
    split; intro H; inversion H; constructor.
  - apply andb_true_iff in Hr as [Hr1 Hr2].
    destruct (fragment2re out full e tagged f) as [p|err] eqn:Ep; cbn [bind] in Hm; [|discriminate].
    destruct (mapM (fragment2re out full e tagged) frags) as [ps|err] eqn:Eps; cbn [bind] in Hm; [|discriminate].
    injection Hm as <-. destruct (IH ps Hr2 eq_refl) as (its2 & Hp2 & Hs2).
    destruct (fragment_part e full tagged f p He Hr1 Ep) as (its1 & Hp1 & Hs1).
    exists (its1 ++ its2). split; [apply prefix_parses_app; assumption|]. intros ct s. split; intro H.
    + inversion H as [|? ? s1 s2 Hf Hrest]; subst. apply lang_app_iff. exists s1, s2.
      split; [reflexivity|]. split; [apply Hs1; exact Hf|apply Hs2; exact Hrest].
    + apply lang_app_iff in H as (s1 & s2 & -> & H1 & H2). constructor; [apply Hs1; exact H1|apply Hs2; exact H2].
Qed.

(* The expression rendered for a pattern is inside the modelled fragment of the syntax: it parses to
   the items of the pattern (padded with \s* when stripped), and those items accept exactly what the pattern matches
   fragment by fragment *)
Theorem rendered_text_parses e full stripped tagged frags text :
  In e extras8 -> forallb (frag_renderable e) frags = true ->
  vrle2re out full e stripped tagged frags = Ok text ->
  exists its, parse_regex text = Some (padded stripped its) /\
              forall ct s, matches_frags ct out e frags s <-> lang ct its s.
Proof.
  intros He Hr Hv. unfold vrle2re in Hv.
  destruct (mapM (fragment2re out full e tagged) frags) as [parts|err] eqn:Ep; cbn [bind] in Hv; [|discriminate].
  injection Hv as <-. destruct (fragments_parts e full tagged He frags parts Hr Ep) as (its & Hpp & Hsem).
  exists its. split; [|exact Hsem].
  assert (Hws : prefix_parses true (if stripped then [92; 115; 42] else []) (if stripped then [ws_item] else []))
    by (destruct stripped; [exact (prefix_parses_quant true CSpace [92; 115] 0 None eq_refl eq_refl)|apply prefix_parses_nil]).
  pose proof (anchored_parses _ _ (prefix_parses_app _ _ _ _ _ Hws (prefix_parses_app _ _ _ _ _ Hpp Hws))) as H. rewrite <- !app_assoc in H.
  destruct stripped; cbn [app] in H; rewrite ?app_nil_r in H; exact H.
Qed.

Theorem rendered_text_matches ct e full stripped tagged frags text s :
  In e extras8 ->
  forallb (frag_renderable e) frags = true ->
  vrle2re out full e stripped tagged frags = Ok text ->
  matches_frags ct out e frags s ->
  re_model_fullmatch ct text s = Some true.
Proof.
  intros He Hr Hv Hm. destruct (rendered_text_parses e full stripped tagged frags text He Hr Hv) as (its & Hp & Hsem).
  unfold re_model_fullmatch. rewrite Hp. f_equal. apply match_items_complete, lang_incl_padded, Hsem, Hm.
Qed.

Theorem rendered_text_exact ct e full tagged frags text s :
  In e extras8 -> forallb (frag_renderable e) frags = true ->
  vrle2re out full e false tagged frags = Ok text ->
  (re_model_fullmatch ct text s = Some true <-> matches_frags ct out e frags s).
Proof.
  intros He Hr Hv. destruct (rendered_text_parses e full false tagged frags text He Hr Hv) as (its & Hp & Hsem).
  unfold re_model_fullmatch. rewrite Hp. cbn [padded]. rewrite (Hsem ct s), <- match_items_spec. split; [intro H; injection H as ->; reflexivity|intros ->; reflexivity].
Qed.

(* C13: the tagged and the untagged rendering of a pattern accept the same strings: tagging only adds groups *)
Theorem tag_same_language ct e full frags t0 t1 s :
  In e extras8 -> forallb (frag_renderable e) frags = true ->
  vrle2re out full e false false frags = Ok t0 ->
  vrle2re out full e false true frags = Ok t1 ->
  re_model_fullmatch ct t0 s = re_model_fullmatch ct t1 s.
Proof.
  intros He Hr H0 H1.
  destruct (rendered_text_parses e full false false frags t0 He Hr H0) as (i0 & P0 & S0).
  destruct (rendered_text_parses e full false true frags t1 He Hr H1) as (i1 & P1 & S1).
  unfold re_model_fullmatch. rewrite P0, P1. cbn [padded].
  destruct (match_items ct i0 s) eqn:E0, (match_items ct i1 s) eqn:E1; try reflexivity.
  - apply match_items_spec, S0, S1, match_items_spec in E0. congruence.
  - apply match_items_spec, S1, S0, match_items_spec in E1. congruence.
Qed.

End WithOut.

Lemma batch_renderable_true ct o e stripped gt ex merged rex :
  batch_extract ct o e stripped gt ex = Ok (merged, rex) -> batch_renderable ct o e stripped gt ex = true ->
  In e extras8 /\ forall fs, In fs merged -> forallb (frag_renderable e) fs = true.
Proof.
  intros Hb Hren. unfold batch_renderable in Hren. rewrite Hb in Hren. apply andb_true_iff in Hren as [He Hren].
  split; [apply mem_str_In; exact He|apply forallb_forall; exact Hren].
Qed.

(* The patterns of one batch extraction rendered as texts, in either rendering of the categories (out = false: the
   expressions the extraction itself uses; out = true: what run_extractor returns under the portable and grep
   dialects), provided the working examples keep matching under that rendering's reading of the categories:
   every working example is matched - in the model's reading of the expression TEXT - by one of the texts, and
   every text matches one of the working examples. *)
Theorem batch_texts_cover out ct o e stripped gt ex merged rex texts :
  batch_extract ct o e stripped gt ex = Ok (merged, rex) ->
  table_ok ct -> 1 <= z_max_strings_in_group o ->
  batch_oracle_okb ct o e stripped gt ex = true ->
  batch_renderable ct o e stripped gt ex = true ->
  mapM (vrle2re out (o_full_escape o) e stripped (o_tag o)) merged = Ok texts ->
  (forall fs s, In s (ex_strings ex) -> matches_frags ct false e fs s -> matches_frags ct out e fs s) ->
  (forall s, In s (ex_strings ex) -> exists text, In text texts /\ re_model_fullmatch ct text s = Some true) /\
  (forall text, In text texts -> exists s, In s (ex_strings ex) /\ re_model_fullmatch ct text s = Some true).
Proof.
  intros Hb Htab Hcap Horc Hren Ht Hout. destruct (batch_renderable_true _ _ _ _ _ _ _ _ Hb Hren) as [He Hfr]. split.
  - intros s Hs. destruct (batch_covers_checked ct o e stripped gt ex merged rex Hb Htab Hcap Horc s Hs) as [fs [Hin Hm]].
    destruct (mapM_In_l _ _ _ Ht fs Hin) as [text [Hv Hi]]. exists text. split; [exact Hi|].
    exact (rendered_text_matches out ct e _ _ _ fs text s He (Hfr fs Hin) Hv (Hout fs s Hs Hm)).
  - intros text Hi. destruct (mapM_In _ _ _ _ Ht Hi) as [fs [Hin Hv]].
    destruct (batch_each_matches_some ct o e stripped gt ex merged rex Hb Htab Hcap Horc fs Hin) as [s [Hs Hm]].
    exists s. split; [exact Hs|].
    exact (rendered_text_matches out ct e _ _ _ fs text s He (Hfr fs Hin) Hv (Hout fs s Hs Hm)).
Qed.

(* The expressions RETURNED under the portable and grep dialects are rendered again with out = true, where
   the digit class is written [0-9] instead of \d.  Their language is exactly matches_frags ct true
   (rendered_text_exact true); it covers what the internal expression covers provided every character that
   Python classes as a decimal digit is an ASCII digit - and not otherwise (portable_gap_refuted below, which
   is the known finding c03-portable-digits / c13-portable-digits). *)
Definition ascii_decimals (ct : chartab) (s : str) : Prop :=
  forall c, In c s -> ct_decimal ct c = true -> is_09 c = true.

(* what the digit category accepts under each rendering (cat_sem at cD): the only place where the rendering matters *)
Definition digit_sem (ct : chartab) (out : bool) (c : Z) : bool := if out then is_09 c else ct_decimal ct c.

Lemma cat_sem_ignores_out ct out e code c : Z.eqb code cD = false -> cat_sem ct out e code c = cat_sem ct false e code c.
Proof. intro H. unfold cat_sem. rewrite H. reflexivity. Qed.

Lemma cat_sem_out_mono ct e code c (o1 o2 : bool) :
  (digit_sem ct o1 c = true -> digit_sem ct o2 c = true) ->
  cat_sem ct o1 e code c = true -> cat_sem ct o2 e code c = true.
Proof.
  intro Hd. destruct (Z.eqb_spec code cD) as [->|Hne]; [exact Hd|]. apply Z.eqb_neq in Hne.
  rewrite (cat_sem_ignores_out ct o1), (cat_sem_ignores_out ct o2) by exact Hne. exact (fun H => H).
Qed.

Lemma frag_matches_out_mono ct e f s (o1 o2 : bool) :
  (forall c, In c s -> digit_sem ct o1 c = true -> digit_sem ct o2 c = true) ->
  frag_matches ct o1 e f s -> frag_matches ct o2 e f s.
Proof.
  unfold frag_matches. destruct (f_atom f) as [w|c|code|cs]; cbn [atom_pred];
    [intros _ H; exact H|intros _ H; exact H| |intros _ H; exact H].
  intros Hd [H1 H2]. split; [|exact H2]. apply forallb_forall. intros x Hx.
  exact (cat_sem_out_mono ct e code x o1 o2 (Hd x Hx) (proj1 (forallb_forall _ _) H1 x Hx)).
Qed.

Lemma matches_frags_out_mono ct e frags s (o1 o2 : bool) :
  (forall c, In c s -> digit_sem ct o1 c = true -> digit_sem ct o2 c = true) ->
  matches_frags ct o1 e frags s -> matches_frags ct o2 e frags s.
Proof.
  intros Hd H. revert Hd. induction H as [|f fs s1 s2 H1 _ IH]; intro Hd; [constructor|]. constructor.
  - apply (frag_matches_out_mono ct e f s1 o1 o2); [|exact H1]. intros c Hc. apply Hd, in_or_app. left. exact Hc.
  - apply IH. intros c Hc. apply Hd, in_or_app. right. exact Hc.
Qed.

(* the two renderings rexpy returns: the internal expressions themselves, and those written again for the portable and
   grep dialects when the examples' decimal digits are ASCII *)
Corollary batch_internal_texts_cover ct o e stripped gt ex merged rex :
  batch_extract ct o e stripped gt ex = Ok (merged, rex) ->
  table_ok ct -> 1 <= z_max_strings_in_group o ->
  batch_oracle_okb ct o e stripped gt ex = true ->
  batch_renderable ct o e stripped gt ex = true ->
  (forall s, In s (ex_strings ex) -> exists text, In text rex /\ re_model_fullmatch ct text s = Some true) /\
  (forall text, In text rex -> exists s, In s (ex_strings ex) /\ re_model_fullmatch ct text s = Some true).
Proof.
  intros Hb Ht Hc Ho Hr. destruct (proj1 (batch_extract_iff _ _ _ _ _ _ _ _) Hb) as (refined & _ & _ & Erx).
  exact (batch_texts_cover false ct o e stripped gt ex merged rex rex Hb Ht Hc Ho Hr Erx (fun _ _ _ H => H)).
Qed.

Corollary batch_portable_texts_cover ct o e stripped gt ex merged rex prex :
  batch_extract ct o e stripped gt ex = Ok (merged, rex) ->
  table_ok ct -> 1 <= z_max_strings_in_group o ->
  batch_oracle_okb ct o e stripped gt ex = true ->
  batch_renderable ct o e stripped gt ex = true ->
  mapM (vrle2re true (o_full_escape o) e stripped (o_tag o)) merged = Ok prex ->
  (forall s, In s (ex_strings ex) -> ascii_decimals ct s) ->
  (forall s, In s (ex_strings ex) -> exists text, In text prex /\ re_model_fullmatch ct text s = Some true) /\
  (forall text, In text prex -> exists s, In s (ex_strings ex) /\ re_model_fullmatch ct text s = Some true).
Proof.
  intros Hb Ht Hc Ho Hr Hp Ha.
  exact (batch_texts_cover true ct o e stripped gt ex merged rex prex Hb Ht Hc Ho Hr Hp
           (fun fs s Hs => matches_frags_out_mono ct e fs s false true (Ha s Hs))).
Qed.

(* Without the hypothesis on digits the statement is false of the faithful model - and of the code: this witness is the
   known finding c03-portable-digits / c13-portable-digits (two ARABIC-INDIC digits, U+0663 U+0664). *)
Example portable_gap_refuted :
  exists frags text s,
    vrle2re true false [] false false frags = Ok text /\
    forallb (frag_renderable []) frags = true /\
    matches_frags py_chartab false [] frags s /\
    re_model_fullmatch py_chartab text s = Some false.
Proof.
  exists [{| f_atom := AClass cD; f_min := 2; f_max := Some 2 |}]. eexists. exists [1635; 1636].
  split; [vm_compute; reflexivity|]. split; [vm_compute; reflexivity|]. split; [|vm_compute; reflexivity].
  change [1635; 1636] with ([1635; 1636] ++ []). constructor; [|constructor].
  unfold frag_matches. cbn [atom_pred f_atom]. split; [vm_compute; reflexivity|]. cbn. lia.
Qed.
