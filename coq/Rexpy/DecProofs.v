(* Decimal rendering (Chars.dec_of_Z, Python's '%d' % n): digits only, and reading them back gives the number. *)
From Coq Require Import ZArith List Bool Lia.
From Tdda Require Import Base.Sexp Rexpy.Chars.
Import ListNotations.
Open Scope Z_scope.

(* the number that a string of digits denotes *)
Definition undec (s : str) : Z := fold_left (fun a c => a * 10 + (c - 48)) s 0.

Lemma undec_snoc ds d : undec (ds ++ [d]) = undec ds * 10 + (d - 48).
Proof. unfold undec. rewrite fold_left_app. reflexivity. Qed.

Lemma digit_09 n : is_09 (48 + n mod 10) = true.
Proof. unfold is_09, between. pose proof (Z.mod_pos_bound n 10 ltac:(lia)). apply andb_true_iff. split; apply Z.leb_le; lia. Qed.

Lemma dec_digits_spec fuel : forall n acc, 0 <= n < 10 ^ Z.of_nat (S fuel) ->
  exists ds, dec_digits (S fuel) n acc = ds ++ acc /\ ds <> [] /\ forallb is_09 ds = true /\ undec ds = n.
Proof.
  assert (H1 : forall n acc, 0 <= n < 10 ->
            exists ds, (48 + n mod 10) :: acc = ds ++ acc /\ ds <> [] /\ forallb is_09 ds = true /\ undec ds = n).
  { intros n acc Hn. exists [48 + n mod 10]. split; [reflexivity|]. split; [discriminate|].
    split; [cbn [forallb]; rewrite digit_09; reflexivity|]. unfold undec. cbn [fold_left]. rewrite Z.mod_small by lia. lia. }
  induction fuel as [|f IH]; intros n acc Hn; cbn [dec_digits].
  - change (10 ^ Z.of_nat 1) with 10 in Hn. destruct (Z.ltb n 10); apply H1; exact Hn.
  - destruct (Z.ltb_spec n 10) as [Hlt|Hge]; [apply H1; lia|].
    rewrite Nat2Z.inj_succ, Z.pow_succ_r in Hn by lia.
    destruct (IH (n / 10) ((48 + n mod 10) :: acc)) as (ds & E & Hne & H09 & Hu).
    { split; [apply Z.div_pos; lia|apply Z.div_lt_upper_bound; lia]. }
    exists (ds ++ [48 + n mod 10]). rewrite <- app_assoc. split; [exact E|]. split; [destruct ds; discriminate|].
    split; [rewrite forallb_app, H09; cbn [forallb]; rewrite digit_09; reflexivity|].
    rewrite undec_snoc, Hu. pose proof (Z.div_mod n 10 ltac:(lia)). lia.
Qed.

Lemma dec_of_Z_spec n : 0 <= n -> dec_of_Z n <> [] /\ forallb is_09 (dec_of_Z n) = true /\ undec (dec_of_Z n) = n.
Proof.
  intro Hn. unfold dec_of_Z. replace (Z.ltb n 0) with false by (symmetry; apply Z.ltb_ge; lia).
  destruct (dec_digits_spec (Z.to_nat (Z.log2 n)) n []) as (ds & E & H); [|rewrite E, app_nil_r; exact H].
  split; [exact Hn|]. destruct (Z.eq_dec n 0) as [->|Hnz]; [cbn; lia|].
  rewrite Nat2Z.inj_succ, Z2Nat.id by (apply Z.log2_nonneg).
  pose proof (Z.log2_spec n ltac:(lia)) as [_ Hu].
  eapply Z.lt_le_trans; [exact Hu|]. apply Z.pow_le_mono_l. lia.
Qed.

Lemma dec_of_Z_inj a b : 0 <= a -> 0 <= b -> dec_of_Z a = dec_of_Z b -> a = b.
Proof.
  intros Ha Hb H. rewrite <- (proj2 (proj2 (dec_of_Z_spec a Ha))), <- (proj2 (proj2 (dec_of_Z_spec b Hb))), H. reflexivity.
Qed.
