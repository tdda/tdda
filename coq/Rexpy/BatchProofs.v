(* One batch extraction covers its own working examples (at the level of fragment semantics),
   relative to the group-split oracle. *)
From Coq Require Import ZArith List Bool Lia.
From Tdda Require Import Base.ListFacts Base.Sexp Base.Str Base.Sort Rexpy.Chars Rexpy.Pipeline Rexpy.Sem
     Rexpy.PipelineProofs Rexpy.RefineProofs Rexpy.OracleCheck.
Import ListNotations.
Open Scope Z_scope.

Lemma count_okb_ok m M n : count_okb m M n = true <-> count_ok m M n.
Proof.
  unfold count_okb, count_ok. destruct M as [M'|].
  - rewrite andb_true_iff, !Z.leb_le. tauto.
  - rewrite orb_true_iff, Z.eqb_eq, Nat.leb_le. tauto.
Qed.

Lemma pos_okb_ok ct e v g : pos_okb ct e v g = true <-> pos_ok ct e v g.
Proof.
  unfold pos_okb. rewrite andb_true_iff, count_okb_ok. split.
  - intros [A B]. constructor; assumption.
  - intros [A B]. split; assumption.
Qed.

Lemma forall2b_Forall2 {A B} (f : A -> B -> bool) l1 l2 :
  forall2b f l1 l2 = true <-> Forall2 (fun a b => f a b = true) l1 l2.
Proof.
  split.
  - revert l2. induction l1 as [|a l1 IH]; intros [|b l2] H; try discriminate H; constructor;
      apply andb_true_iff in H as [Hab H]; [exact Hab|apply IH, H].
  - induction 1 as [|a b l1 l2 Hab _ IH]; cbn [forall2b]; [reflexivity|]. rewrite Hab. exact IH.
Qed.

Lemma split_okb_ok ct e vrle ex gs : split_okb ct e vrle ex gs = true ->
  List.concat gs = ex /\ Forall2 (pos_ok ct e) vrle gs.
Proof.
  unfold split_okb. rewrite andb_true_iff, str_eqb_eq, forall2b_Forall2. intros [A B]. split; [exact A|].
  eapply Forall2_impl; [|exact B]. intros a b H. apply pos_okb_ok. exact H.
Qed.

(* every split the oracle table offers for a (coarse regex, example of that VRLE) pair is acceptable *)
Definition oracle_ok (ct : chartab) (o : ropts) (e : str) (stripped : bool) (gt : groups_table)
           (strings : list str) (rles : list (list (Z * Z))) (vrles : list (list vfrag)) : Prop :=
  forall vrle regex ex gs, In vrle vrles ->
    vrle2re false (o_full_escape o) e stripped true (map frag_of_vfrag vrle) = Ok regex ->
    In ex (mine_of strings rles vrle) -> lookup_groups gt regex ex = Some gs ->
    split_okb ct e vrle ex gs = true.

(* the group strings of one example, as refine_vrle asks the oracle for them *)
Definition look (gt : groups_table) (regex : str) (vrle : list vfrag) (ex : str) : res (list str) :=
  match lookup_groups gt regex ex with
  | Some gs => if Nat.eqb (length gs) (length vrle) then Ok gs else Err E_GROUP_COUNT
  | None => Err E_NO_GROUPS
  end.

Lemma look_ok gt regex vrle ex gs : look gt regex vrle ex = Ok gs ->
  lookup_groups gt regex ex = Some gs /\ length gs = length vrle.
Proof.
  unfold look. destruct (lookup_groups gt regex ex) as [gs0|]; [|discriminate].
  destruct (Nat.eqb_spec (length gs0) (length vrle)) as [E|]; [|discriminate].
  intro H. injection H as <-. split; [reflexivity|exact E].
Qed.

Lemma refine_vrle_eq ct o e stripped gt strings rles vrle :
  refine_vrle ct o e stripped gt strings rles vrle =
  (do regex <- vrle2re false (o_full_escape o) e stripped true (map frag_of_vfrag vrle);
   do groups <- mapM (look gt regex vrle) (mine_of strings rles vrle);
   Ok (refine_all ct (z_max_punc_in_group o) e (Z.of_nat (length vrle)) vrle
         (fold_left (fold_step ct e (o_vlf o) (z_max_strings_in_group o) vrle) groups (map (fun _ => acc0) vrle)))).
Proof. reflexivity. Qed.

Lemma mine_of_filter (f : str -> list (Z * Z)) strings vrle :
  mine_of strings (map f strings) vrle = filter (fun s => str_eqb (signature (f s)) (map vf_code vrle)) strings.
Proof.
  unfold mine_of. induction strings as [|s strings IH]; [reflexivity|]. cbn [map combine filter snd].
  destruct (str_eqb _ _); cbn [map fst]; rewrite IH; reflexivity.
Qed.

Lemma mine_of_In (f : str -> list (Z * Z)) strings vrle s :
  In s (mine_of strings (map f strings) vrle) <-> In s strings /\ signature (f s) = map vf_code vrle.
Proof. rewrite mine_of_filter, filter_In, str_eqb_eq. reflexivity. Qed.

Theorem refine_vrle_covers ct o e stripped gt strings rles vrles vrle frags :
  table_ok ct -> 1 <= z_max_strings_in_group o ->
  oracle_ok ct o e stripped gt strings rles vrles -> In vrle vrles ->
  refine_vrle ct o e stripped gt strings rles vrle = Ok frags ->
  forall ex, In ex (mine_of strings rles vrle) -> matches_frags ct false e frags ex.
Proof.
  intros Htab Hcap Horc Hin H ex Hex. rewrite refine_vrle_eq in H.
  destruct (vrle2re false (o_full_escape o) e stripped true (map frag_of_vfrag vrle)) as [regex|err] eqn:Ere; cbn [bind] in H; [|discriminate].
  destruct (mapM _ (mine_of strings rles vrle)) as [groups|err] eqn:Eg; cbn [bind] in H; [|discriminate].
  injection H as <-.
  (* every collected group list is an acceptable split of its example *)
  assert (Hsplit : forall ex0 gs, In ex0 (mine_of strings rles vrle) -> look gt regex vrle ex0 = Ok gs ->
            List.concat gs = ex0 /\ Forall2 (pos_ok ct e) vrle gs).
  { intros ex0 gs Hex0 Hl. apply split_okb_ok. eapply Horc; try eassumption. apply (look_ok _ _ _ _ _ Hl). }
  destruct (mapM_In_l _ _ _ Eg ex Hex) as [gs [Hl Hgs]].
  destruct (Hsplit ex gs Hex Hl) as [<- _].
  refine (refine_covers ct (z_max_punc_in_group o) e (o_vlf o) (z_max_strings_in_group o) vrle groups Htab Hcap _ gs Hgs).
  intros gs0 Hgs0. destruct (mapM_In _ _ _ _ Eg Hgs0) as [ex0 [Hex0 Hl0]]. apply (Hsplit ex0 gs0 Hex0 Hl0).
Qed.

Lemma rle_eqb_eq a b : rle_eqb a b = true <-> a = b.
Proof.
  revert b; induction a as [|[c n] a IH]; intros [|[d m] b]; cbn [rle_eqb]; split; intro H; try reflexivity; try discriminate.
  - apply andb_true_iff in H as [H1 H2]. apply andb_true_iff in H1 as [Hc Hn].
    apply Z.eqb_eq in Hc, Hn. apply IH in H2. congruence.
  - injection H as -> -> ->. rewrite !Z.eqb_refl. apply IH. reflexivity.
Qed.

Lemma vrle_of_sig_codes rles sig : map vf_code (vrle_of_sig rles sig) = sig.
Proof.
  unfold vrle_of_sig. rewrite map_map. rewrite <- (map_nth_seq sig 0) at 2. apply map_ext. intro i.
  destruct (Z.leb _ _); reflexivity.
Qed.

Lemma to_vrles_In L v : In v (to_vrles L) <-> exists r, In r L /\ v = vrle_of_sig L (signature r).
Proof.
  unfold to_vrles, sigs_of. rewrite isort_In, in_map_iff. split.
  - intros [sig [<- H]]. apply (dedup_by_In _ str_eqb_eq), in_map_iff in H as [r [<- Hr]].
    exists r. split; [exact Hr|reflexivity].
  - intros [r [Hr ->]]. exists (signature r). split; [reflexivity|]. apply (dedup_by_In _ str_eqb_eq), in_map, Hr.
Qed.

Lemma example_has_vrle ct e strings s :
  In s strings ->
  let rles := map (rle_coarse ct e) strings in
  exists vrle, In vrle (to_vrles (dedup_by rle_eqb rles)) /\ In s (mine_of strings rles vrle).
Proof.
  intros Hs rles. exists (vrle_of_sig (dedup_by rle_eqb rles) (signature (rle_coarse ct e s))). split.
  - apply to_vrles_In. exists (rle_coarse ct e s). split; [|reflexivity].
    apply (dedup_by_In _ rle_eqb_eq), in_map, Hs.
  - apply mine_of_In. split; [exact Hs|]. rewrite vrle_of_sig_codes. reflexivity.
Qed.

Lemma vrle_has_example ct e strings vrle :
  let rles := map (rle_coarse ct e) strings in
  In vrle (to_vrles (dedup_by rle_eqb rles)) -> exists s, In s (mine_of strings rles vrle).
Proof.
  intros rles Hin. apply to_vrles_In in Hin as [r [Hr ->]].
  apply (dedup_by_In _ rle_eqb_eq), in_map_iff in Hr as [s [<- Hs]].
  exists s. apply mine_of_In. split; [exact Hs|]. rewrite vrle_of_sig_codes. reflexivity.
Qed.

Lemma merge_refined_In refined fs : In fs (merge_refined refined) <-> In fs refined.
Proof. destruct refined as [|a [|b l]]; try reflexivity. apply isort_In. Qed.

(* C03, one batch: every working example is matched (at the level of fragment semantics) by one of the
   refined patterns the batch extraction returns *)
Theorem batch_covers ct o e stripped gt ex merged rex :
  batch_extract ct o e stripped gt ex = Ok (merged, rex) ->
  table_ok ct -> 1 <= z_max_strings_in_group o ->
  oracle_ok ct o e stripped gt (ex_strings ex) (map (rle_coarse ct e) (ex_strings ex))
            (to_vrles (dedup_by rle_eqb (map (rle_coarse ct e) (ex_strings ex)))) ->
  forall s, In s (ex_strings ex) -> exists fs, In fs merged /\ matches_frags ct false e fs s.
Proof.
  intros H Htab Hcap Horc s Hs. apply batch_extract_iff in H as (refined & Eref & -> & _).
  destruct (example_has_vrle ct e (ex_strings ex) s Hs) as [vrle [Hv Hmine]].
  destruct (mapM_In_l _ _ _ Eref vrle Hv) as [frags [Hf Hin]].
  exists frags. split; [exact (proj2 (merge_refined_In refined frags) Hin)|]. eapply refine_vrle_covers; eassumption.
Qed.

Lemma batch_oracle_okb_ok ct o e stripped gt ex : batch_oracle_okb ct o e stripped gt ex = true ->
  oracle_ok ct o e stripped gt (ex_strings ex) (map (rle_coarse ct e) (ex_strings ex))
            (to_vrles (dedup_by rle_eqb (map (rle_coarse ct e) (ex_strings ex)))).
Proof.
  unfold batch_oracle_okb, oracle_ok. intros H vrle regex ex0 gs Hv Hre Hex Hl.
  rewrite forallb_forall in H. specialize (H vrle Hv). unfold vrle_oracle_okb in H. rewrite Hre in H.
  rewrite forallb_forall in H. specialize (H ex0 Hex). rewrite Hl in H. exact H.
Qed.

Theorem batch_covers_checked ct o e stripped gt ex merged rex :
  batch_extract ct o e stripped gt ex = Ok (merged, rex) ->
  table_ok ct -> 1 <= z_max_strings_in_group o ->
  batch_oracle_okb ct o e stripped gt ex = true ->
  forall s, In s (ex_strings ex) -> exists fs, In fs merged /\ matches_frags ct false e fs s.
Proof.
  intros H Htab Hcap Hb. eapply batch_covers; try eassumption. apply batch_oracle_okb_ok. exact Hb.
Qed.

Lemma py_table_ok : table_ok py_chartab.
Proof.
  intros c H. unfold is_09, between in H. apply andb_true_iff in H as [H1 H2]. apply Z.leb_le in H1, H2.
  assert (Hall : forallb (ct_decimal py_chartab) (map Z.of_nat (seq 48 10)) = true) by (vm_compute; reflexivity).
  rewrite forallb_forall in Hall. apply Hall. apply in_map_iff. exists (Z.to_nat c). split; [lia|apply in_seq; lia].
Qed.

Lemma isort_In_local {T} (leb : T -> T -> bool) l y : In y (isort leb l) <-> In y l.
Proof. apply isort_In. Qed.

Lemma mapM_In_back {A B} (f : A -> res B) l ys y : mapM f l = Ok ys -> In y ys -> exists x, In x l /\ f x = Ok y.
Proof. apply mapM_In. Qed.

(* C13, one batch: each refined pattern matches at least one of the working examples *)
Theorem batch_each_matches_some ct o e stripped gt ex merged rex :
  batch_extract ct o e stripped gt ex = Ok (merged, rex) ->
  table_ok ct -> 1 <= z_max_strings_in_group o ->
  batch_oracle_okb ct o e stripped gt ex = true ->
  forall fs, In fs merged -> exists s, In s (ex_strings ex) /\ matches_frags ct false e fs s.
Proof.
  intros H Htab Hcap Hb fs Hfs. apply batch_extract_iff in H as (refined & Eref & -> & _).
  apply (proj1 (merge_refined_In refined fs)) in Hfs. destruct (mapM_In _ _ _ _ Eref Hfs) as [vrle [Hv Hr]].
  destruct (vrle_has_example ct e (ex_strings ex) vrle Hv) as [s Hs].
  exists s. split; [exact (proj1 (proj1 (mine_of_In _ _ _ _) Hs))|].
  eapply refine_vrle_covers; try eassumption. apply batch_oracle_okb_ok, Hb.
Qed.
