(* C14: batch extraction does not depend on the order of the working examples.  Each accumulator of
   analyse_fragments is a fold whose result is a function of the multiset folded over: the character set is a
   strictly sorted list (determined by its elements), the VRLE states are widened by a step that commutes, and
   "exactly one string was seen" is a property of the set of strings. *)
From Coq Require Import ZArith List Lia Permutation.
From Tdda Require Import Base.ListFacts Base.Sexp Base.Str Base.SortProofs Rexpy.Chars Rexpy.Pipeline Rexpy.Sem
     Rexpy.RefineProofs Rexpy.PipelineProofs Rexpy.BatchProofs.
Import ListNotations.
Open Scope Z_scope.

Lemma fold_left_comm_perm {A B} (f : A -> B -> A) :
  (forall a x y, f (f a x) y = f (f a y) x) ->
  forall l l', Permutation l l' -> forall a, fold_left f l a = fold_left f l' a.
Proof.
  intros Hc l l' Hp a. apply (fold_left_comm_perm_inv f (fun _ => True)); [trivial|intros; apply Hc|exact Hp|exact I].
Qed.

Lemma option_ext {A} (o o' : option A) : (forall x, o = Some x <-> o' = Some x) -> o = o'.
Proof.
  intro H. destruct o as [x|].
  - symmetry. apply H. reflexivity.
  - destruct o' as [x|]; [apply H|]; reflexivity.
Qed.

(* the selection of a list by a commutative, associative, idempotent operation (minimum, maximum) *)
Section Select.
  Variable f : Z -> Z -> Z.
  Hypothesis f_comm : forall a b, f a b = f b a.
  Hypothesis f_assoc : forall a b c, f a (f b c) = f (f a b) c.
  Hypothesis f_idem : forall a, f a a = a.

  Lemma select_swap a x y : f (f a x) y = f (f a y) x.
  Proof. rewrite <- !f_assoc, (f_comm x y). reflexivity. Qed.

  Lemma fold_absorb l : forall a x, In x (a :: l) -> fold_left f l (f a x) = fold_left f l a.
  Proof.
    induction l as [|y l IH]; intros a x [<-|Hx]; cbn [fold_left].
    - apply f_idem.
    - destruct Hx.
    - rewrite f_idem. reflexivity.
    - rewrite select_swap. destruct Hx as [<-|Hx]; [rewrite <- f_assoc, f_idem; reflexivity|].
      apply IH. right. exact Hx.
  Qed.

  Lemma select_perm_eq l l' : Permutation l l' ->
    match l with [] => 0 | x :: r => fold_left f r x end = match l' with [] => 0 | x :: r => fold_left f r x end.
  Proof.
    intro Hp. destruct l as [|x r]; [apply Permutation_nil in Hp; subst; reflexivity|].
    destruct l' as [|x' r']; [apply Permutation_sym, Permutation_nil in Hp; discriminate|].
    rewrite <- (fold_absorb r x x (or_introl eq_refl)).
    change (fold_left f (x :: r) x = fold_left f r' x'). rewrite (fold_left_comm_perm f select_swap _ _ Hp).
    cbn [fold_left]. rewrite f_comm. apply fold_absorb. exact (Permutation_in x Hp (or_introl eq_refl)).
  Qed.
End Select.

Lemma list_min_perm_eq l l' : Permutation l l' -> list_min l = list_min l'.
Proof. apply (select_perm_eq Z.min Z.min_comm Z.min_assoc Z.min_id). Qed.

Lemma list_max_perm_eq l l' : Permutation l l' -> list_max l = list_max l'.
Proof. apply (select_perm_eq Z.max Z.max_comm Z.max_assoc Z.max_id). Qed.

Fixpoint sorted_strict (l : str) : Prop :=
  match l with [] => True | x :: r => (forall y, In y r -> x < y) /\ sorted_strict r end.

Lemma insert_char_sorted c l : sorted_strict l -> sorted_strict (insert_char c l).
Proof.
  induction l as [|d l IH]; intro H; cbn [insert_char sorted_strict].
  - split; [intros y []|exact I].
  - destruct H as [Hd Hs]. destruct (Z.ltb_spec c d) as [Hlt|Hge].
    + cbn [sorted_strict]. split; [|split; assumption].
      intros y [<-|Hy]; [exact Hlt|]. specialize (Hd y Hy). lia.
    + destruct (Z.eqb_spec c d) as [->|Hne]; [split; assumption|].
      cbn [sorted_strict]. split; [|apply IH; exact Hs].
      intros y Hy. apply insert_char_In in Hy as [<-|Hy]; [lia|apply Hd; exact Hy].
Qed.

Lemma add_chars_sorted s : forall set, sorted_strict set -> sorted_strict (add_chars s set).
Proof.
  unfold add_chars. induction s as [|c s IH]; intros set H; cbn [fold_left]; [exact H|].
  apply IH. apply insert_char_sorted. exact H.
Qed.

Lemma sorted_strict_unique l : forall l', sorted_strict l -> sorted_strict l' ->
  (forall x, In x l <-> In x l') -> l = l'.
Proof.
  induction l as [|a l IH]; intros [|b l'] Hs Hs' Hin.
  - reflexivity.
  - exfalso. apply (proj2 (Hin b)). left; reflexivity.
  - exfalso. apply (proj1 (Hin a)). left; reflexivity.
  - destruct Hs as [Ha Hs]. destruct Hs' as [Hb Hs'].
    assert (a = b).
    { destruct (proj1 (Hin a) (or_introl eq_refl)) as [E|Ha']; [congruence|].
      destruct (proj2 (Hin b) (or_introl eq_refl)) as [E|Hb']; [congruence|].
      specialize (Ha b Hb'). specialize (Hb a Ha'). lia. }
    subst b. f_equal. apply IH; [exact Hs|exact Hs'|].
    intro x. split; intro Hx.
    + destruct (proj1 (Hin x) (or_intror Hx)) as [E|H']; [|exact H']. subst x. specialize (Ha a Hx). lia.
    + destruct (proj2 (Hin x) (or_intror Hx)) as [E|H']; [|exact H']. subst x. specialize (Hb a Hx). lia.
Qed.

Lemma add_chars_comm g1 g2 set : sorted_strict set ->
  add_chars g2 (add_chars g1 set) = add_chars g1 (add_chars g2 set).
Proof.
  intro Hs. apply sorted_strict_unique; try (apply add_chars_sorted, add_chars_sorted, Hs).
  intro x. rewrite !add_chars_In. tauto.
Qed.

Theorem chars_perm_eq G G' : Permutation G G' ->
  fold_left (fun s g => add_chars g s) G [] = fold_left (fun s g => add_chars g s) G' [].
Proof.
  intro Hp. apply (fold_left_comm_perm_inv _ sorted_strict).
  - intros s g. apply add_chars_sorted.
  - intros s g1 g2. apply add_chars_comm.
  - exact Hp.
  - exact I.
Qed.

(* On a VRLE already begun, expand_or_falsify is a structural recursion (expand_or_falsify_merge below): position by
   position `merge` takes the hull of the range and the run's count (hull1); under variableLengthFrags (vl) the tail of the
   longer side becomes optional (zero_min for a VRLE's tail, ext_run for an RLE's); a different key - or, without vl, a
   different length - gives None, which stands for TFalse (tri_of).  Widening by r1 and then by r2 is
   obind (merge vl r1 v) (merge vl r2), and merge_comm says that the order of the two does not matter. *)
Definition hull1 (r : Z * Z) (v : Z * Z * Z) : option (Z * Z * Z) :=
  let '(c, m, M) := v in
  if Z.eqb (fst r) c then Some (c, Z.min m (snd r), Z.max M (snd r)) else None.

Lemma widen_hull r v : vr_min v <= vr_max v -> widen r v = hull1 r v.
Proof.
  destruct v as [[c m] M]. unfold widen, hull1, vr_min, vr_max. cbn [fst snd]. intro H.
  destruct (Z.eqb (fst r) c); [|reflexivity]. f_equal.
  destruct (Z.leb_spec m (snd r)); destruct (Z.leb_spec (snd r) M); cbn [andb].
  - rewrite Z.min_l, Z.max_l by lia. reflexivity.
  - destruct (Z.ltb_spec (snd r) m); [lia|]. rewrite Z.min_l, Z.max_r by lia. reflexivity.
  - destruct (Z.ltb_spec (snd r) m); [|lia]. rewrite Z.min_r, Z.max_l by lia. reflexivity.
  - lia.
Qed.

Definition zero_min (x : Z * Z * Z) : Z * Z * Z := let '(c, _, M) := x in (c, 0, M).
Definition ext_run (x : Z * Z) : Z * Z * Z := (fst x, 0, snd x).

Fixpoint merge (vl : bool) (r : list (Z * Z)) (v : list (Z * Z * Z)) : option (list (Z * Z * Z)) :=
  match r, v with
  | [], [] => Some []
  | [], _ :: _ => if vl then Some (map zero_min v) else None
  | _ :: _, [] => if vl then Some (map ext_run r) else None
  | x :: r', y :: v' => match hull1 x y, merge vl r' v' with
                        | Some z, Some o => Some (z :: o)
                        | _, _ => None
                        end
  end.

Definition tri_of (o : option (list (Z * Z * Z))) : tri := match o with Some v => TSome v | None => TFalse end.

Lemma merge_true_nil_l v : merge true [] v = Some (map zero_min v).
Proof. destruct v; reflexivity. Qed.

Lemma merge_true_nil_r r : merge true r [] = Some (map ext_run r).
Proof. destruct r; reflexivity. Qed.

Lemma expand_or_falsify_merge vl : forall r v, ranges_ok v -> expand_or_falsify r (TSome v) vl = tri_of (merge vl r v).
Proof.
  induction r as [|x r IH]; intros [|y v] Hok.
  - reflexivity.
  - destruct vl; reflexivity.
  - destruct vl; reflexivity.
  - destruct (Forall_inv Hok) as [_ Hy]. rewrite expand_or_falsify_cons, (IH v (Forall_inv_tail Hok)), (widen_hull x y Hy).
    cbn [merge]. destruct (hull1 x y); [|reflexivity]. destruct (merge vl r v); reflexivity.
Qed.

Definition obind {A B} (o : option A) (f : A -> option B) : option B := match o with Some a => f a | None => None end.

Lemma hull1_comm x1 x2 y : obind (hull1 x1 y) (hull1 x2) = obind (hull1 x2 y) (hull1 x1).
Proof.
  destruct y as [[c m] M]. destruct x1 as [c1 n1], x2 as [c2 n2]. unfold hull1, obind. cbn [fst snd].
  destruct (Z.eqb c1 c) eqn:E1; destruct (Z.eqb c2 c) eqn:E2; rewrite ?E1; try reflexivity.
  rewrite <- !Z.min_assoc, <- !Z.max_assoc, (Z.min_comm n1), (Z.max_comm n1). reflexivity.
Qed.

Lemma map_zero_ext r : map zero_min (map ext_run r) = map ext_run r.
Proof. rewrite map_map. apply map_ext. intros []. reflexivity. Qed.

Lemma zero_zero x : zero_min (zero_min x) = zero_min x.
Proof. destruct x as [[c m] M]; reflexivity. Qed.

Lemma hull1_zero x y : 0 <= snd x -> hull1 x (zero_min y) = option_map zero_min (hull1 x y).
Proof.
  destruct y as [[c m] M]. unfold hull1, zero_min. intro H. destruct (Z.eqb (fst x) c); [|reflexivity].
  cbn [option_map]. rewrite (Z.min_l 0) by exact H. reflexivity.
Qed.

Definition nn_rle (r : list (Z * Z)) : Prop := Forall (fun x => 0 <= snd x) r.

Lemma pos_rle_nonneg r : pos_rle r -> nn_rle r.
Proof. intro H. eapply Forall_impl; [|exact H]. cbn. lia. Qed.

Lemma merge_zero r : forall v, nn_rle r ->
  merge true r (map zero_min v) = option_map (map zero_min) (merge true r v).
Proof.
  induction r as [|x r IH]; intros [|y v] Hr; cbn [merge map option_map].
  - reflexivity.
  - reflexivity.
  - rewrite map_zero_ext. reflexivity.
  - rewrite (hull1_zero x y (Forall_inv Hr)), (IH v (Forall_inv_tail Hr)).
    destruct (hull1 x y); cbn [option_map]; [|reflexivity]. destruct (merge true r v); reflexivity.
Qed.

Definition self_vrle (r : list (Z * Z)) : list (Z * Z * Z) := map (fun x => (fst x, snd x, snd x)) r.

Lemma hull1_self x1 x2 : hull1 x2 (fst x1, snd x1, snd x1) = hull1 x1 (fst x2, snd x2, snd x2).
Proof.
  unfold hull1. rewrite (Z.eqb_sym (fst x2)). destruct (Z.eqb_spec (fst x1) (fst x2)) as [->|]; [|reflexivity].
  rewrite Z.min_comm, Z.max_comm. reflexivity.
Qed.

Lemma zero_self r : map zero_min (self_vrle r) = map ext_run r.
Proof. unfold self_vrle. rewrite map_map. reflexivity. Qed.

Lemma merge_self_sym vl r1 : forall r2, merge vl r2 (self_vrle r1) = merge vl r1 (self_vrle r2).
Proof.
  induction r1 as [|x1 r1 IH]; intros [|x2 r2].
  - reflexivity.
  - destruct vl; [|reflexivity]. rewrite merge_true_nil_l, merge_true_nil_r, zero_self. reflexivity.
  - destruct vl; [|reflexivity]. rewrite merge_true_nil_l, merge_true_nil_r, zero_self. reflexivity.
  - cbn [self_vrle map merge]. rewrite (hull1_self x1 x2). fold (self_vrle r1) (self_vrle r2). rewrite IH. reflexivity.
Qed.

Lemma merge_ext_sym r1 r2 : nn_rle r1 -> nn_rle r2 ->
  merge true r1 (map ext_run r2) = merge true r2 (map ext_run r1).
Proof.
  intros H1 H2. rewrite <- !zero_self, !merge_zero by assumption. rewrite merge_self_sym. reflexivity.
Qed.

Lemma merge_nil_comm vl r v : nn_rle r ->
  obind (merge vl [] v) (merge vl r) = obind (merge vl r v) (merge vl []).
Proof.
  intro Hr. destruct vl.
  - rewrite merge_true_nil_l. cbn [obind]. rewrite merge_zero by exact Hr.
    destruct (merge true r v) as [o|]; [symmetry; apply merge_true_nil_l|reflexivity].
  - destruct v as [|y v], r as [|x r]; try reflexivity. cbn [merge].
    destruct (hull1 x y); [|reflexivity]. destruct (merge false r v); reflexivity.
Qed.

(* the heads and the tails are merged independently *)
Lemma merge_cons_obind vl x1 r1 x2 r2 y v :
  obind (merge vl (x1 :: r1) (y :: v)) (merge vl (x2 :: r2)) =
  match obind (hull1 x1 y) (hull1 x2), obind (merge vl r1 v) (merge vl r2) with
  | Some z, Some o => Some (z :: o)
  | _, _ => None
  end.
Proof.
  cbn [merge]. destruct (hull1 x1 y) as [z1|]; [|reflexivity].
  destruct (merge vl r1 v) as [o1|]; cbn [obind merge]; [reflexivity|]. destruct (hull1 x2 z1); reflexivity.
Qed.

Theorem merge_comm vl : forall r1 r2 v, nn_rle r1 -> nn_rle r2 ->
  obind (merge vl r1 v) (merge vl r2) = obind (merge vl r2 v) (merge vl r1).
Proof.
  induction r1 as [|x1 r1 IH]; intros r2 v H1 H2; [apply merge_nil_comm; exact H2|].
  destruct r2 as [|x2 r2]; [symmetry; apply merge_nil_comm; exact H1|].
  destruct v as [|y v].
  - destruct vl; [|reflexivity]. exact (merge_ext_sym (x2 :: r2) (x1 :: r1) H2 H1).
  - rewrite !merge_cons_obind, (hull1_comm x1 x2 y), (IH r2 v (Forall_inv_tail H1) (Forall_inv_tail H2)). reflexivity.
Qed.

(* tri_inv without the RLEs seen so far *)
Definition tri_ok (t : tri) : Prop := match t with TSome v => ranges_ok v | _ => True end.

Lemma tri_inv_ok R t : tri_inv R t -> tri_ok t.
Proof. destruct t; [intros _; exact I|intros _; exact I|exact (@proj1 _ _)]. Qed.

Lemma tri_ok_inv t : tri_ok t -> tri_inv [] t.
Proof. destruct t as [| |v]; cbn [tri_ok tri_inv]; [reflexivity|trivial|]. intro H. split; [exact H|intros r []]. Qed.

Lemma tri_ok_step r t vl : pos_rle r -> tri_ok t -> tri_ok (expand_or_falsify r t vl).
Proof. intros Hp Ht. exact (tri_inv_ok _ _ (expand_or_falsify_inv [] r t vl Hp (tri_ok_inv t Ht))). Qed.

Lemma expand_or_falsify_tri_of vl r o : tri_ok (tri_of o) -> expand_or_falsify r (tri_of o) vl = tri_of (obind o (merge vl r)).
Proof. destruct o as [v|]; [apply expand_or_falsify_merge|reflexivity]. Qed.

Theorem expand_or_falsify_comm vl t r1 r2 : tri_ok t -> pos_rle r1 -> pos_rle r2 ->
  expand_or_falsify r2 (expand_or_falsify r1 t vl) vl = expand_or_falsify r1 (expand_or_falsify r2 t vl) vl.
Proof.
  intros Ht H1 H2. destruct t as [| |v].
  - change (expand_or_falsify r1 TNone vl) with (TSome (self_vrle r1)).
    change (expand_or_falsify r2 TNone vl) with (TSome (self_vrle r2)).
    rewrite !expand_or_falsify_merge by (apply (tri_ok_step _ TNone vl); [assumption|exact I]).
    rewrite merge_self_sym. reflexivity.
  - reflexivity.
  - pose proof (tri_ok_step r1 (TSome v) vl H1 Ht) as Ho1. pose proof (tri_ok_step r2 (TSome v) vl H2 Ht) as Ho2.
    rewrite (expand_or_falsify_merge vl r1 v Ht) in *. rewrite (expand_or_falsify_merge vl r2 v Ht) in *.
    rewrite (expand_or_falsify_tri_of vl r2 _ Ho1), (expand_or_falsify_tri_of vl r1 _ Ho2), (merge_comm vl r1 r2 v) by (apply pos_rle_nonneg; assumption).
    reflexivity.
Qed.

Definition acc_fold (ct : chartab) (e : str) (vl : bool) (cap code : Z) (G : list str) : acc :=
  fold_left (acc_step ct e vl cap code) G acc0.

Definition single_of (l : list str) : option str := match l with [s] => Some s | _ => None end.

(* what refine_one looks at *)
Definition view (a : acc) : option str * str * tri * tri := (single_of (a_strings a), a_chars a, a_fc a, a_c a).

Lemma refine_one_single ct mp e n v a :
  refine_one ct mp e n v a =
  match single_of (a_strings a) with
  | Some s => ([{| f_atom := ALit s; f_min := 1; f_max := Some 1 |}], n)
  | None => refine_rest ct mp e n v a
  end.
Proof. unfold refine_one. destruct (a_strings a) as [|s [|s' l]]; reflexivity. Qed.

Lemma refine_rest_view ct mp e n v a a' : a_chars a = a_chars a' -> a_fc a = a_fc a' -> a_c a = a_c a' ->
  refine_rest ct mp e n v a = refine_rest ct mp e n v a'.
Proof. destruct a as [ch ss k fc c], a' as [ch' ss' k' fc' c']. cbn [a_chars a_fc a_c]. intros -> -> ->. reflexivity. Qed.

Lemma refine_one_view ct mp e n v a a' : view a = view a' -> refine_one ct mp e n v a = refine_one ct mp e n v a'.
Proof.
  unfold view. intro H. injection H as Hs Hc Hf Hcc.
  rewrite !refine_one_single, Hs, (refine_rest_view ct mp e n v a a' Hc Hf Hcc). reflexivity.
Qed.

Lemma acc_step_chars ct e vl cap code a g : a_chars (acc_step ct e vl cap code a g) = add_chars g (a_chars a).
Proof. unfold acc_step. destruct (rle_fc_c ct e vl g code (a_fc a) (a_c a)). reflexivity. Qed.

Lemma acc_step_tris ct e vl cap code a g :
  (a_fc (acc_step ct e vl cap code a g), a_c (acc_step ct e vl cap code a g)) = rle_fc_c ct e vl g code (a_fc a) (a_c a).
Proof. unfold acc_step. destruct (rle_fc_c ct e vl g code (a_fc a) (a_c a)). reflexivity. Qed.

Lemma rle_fc_c_components ct e vl g code fc c : Z.eqb code cUC = true ->
  rle_fc_c ct e vl g code fc c =
  (expand_or_falsify (run_length_encode (map (fine_class ct e) g)) fc vl, expand_or_falsify (run_length_encode g) c vl).
Proof.
  intro Hc. unfold rle_fc_c. rewrite Hc.
  destruct fc as [| |vf]; destruct c as [| |vc]; cbn [is_false andb]; try reflexivity.
Qed.

Lemma rle_fc_c_other ct e vl g code fc c : Z.eqb code cUC = false -> rle_fc_c ct e vl g code fc c = (TFalse, TFalse).
Proof. intro Hc. unfold rle_fc_c. rewrite Hc. reflexivity. Qed.

Definition pair_ok (p : tri * tri) : Prop := tri_ok (fst p) /\ tri_ok (snd p).

(* the two VRLE states of a position (fine classes, characters) take one group string *)
Definition tris_step (ct : chartab) (e : str) (vl : bool) (code : Z) (q : tri * tri) (g : str) : tri * tri :=
  rle_fc_c ct e vl g code (fst q) (snd q).

Theorem tris_perm_eq ct e vl code G G' : Permutation G G' ->
  fold_left (tris_step ct e vl code) G (TNone, TNone) = fold_left (tris_step ct e vl code) G' (TNone, TNone).
Proof.
  intro Hp. apply (fold_left_comm_perm_inv _ pair_ok).
  - intros p g [H1 H2]. unfold tris_step. destruct (Z.eqb code cUC) eqn:Ec.
    + rewrite rle_fc_c_components by exact Ec. split; cbn [fst snd]; apply tri_ok_step; try assumption; apply run_length_encode_pos.
    + rewrite rle_fc_c_other by exact Ec. split; exact I.
  - intros p g1 g2 [H1 H2]. unfold tris_step. destruct (Z.eqb code cUC) eqn:Ec.
    + rewrite !rle_fc_c_components by exact Ec.
      f_equal; apply expand_or_falsify_comm; try assumption; apply run_length_encode_pos.
    + rewrite !rle_fc_c_other by exact Ec. reflexivity.
  - exact Hp.
  - split; exact I.
Qed.

Lemma strings_fold_inv cap G : 1 <= cap -> strings_inv G (fold_left (strings_step cap) G ([], 0)).
Proof. intro Hcap. exact (fold_left_snoc_inv _ _ (strings_step_inv cap Hcap) G [] _ strings_inv_nil). Qed.

Definition consists_of (s : str) (G : list str) : Prop := G <> [] /\ forall g, In g G -> g = s.

Lemma consists_of_perm_inv s G G' : Permutation G G' -> consists_of s G -> consists_of s G'.
Proof.
  intros Hp [Hne Hall]. split.
  - intros ->. apply Permutation_sym, Permutation_nil in Hp. contradiction.
  - intros g Hg. apply Hall. exact (Permutation_in g (Permutation_sym Hp) Hg).
Qed.

Lemma single_of_iff G st s : strings_inv G st -> (single_of (fst st) = Some s <-> consists_of s G).
Proof.
  intro Hinv. pose proof Hinv as (_ & Hall & Hsub & Hnd). destruct st as [[|a [|b l]] n]; cbn [fst single_of] in *.
  - split; [discriminate|]. intros [HG _]. destruct G as [|g G]; [congruence|].
    destruct (Hall (Nat.le_0_l 1) g (or_introl eq_refl)).
  - split.
    + intros [= ->]. split; [intros ->; exact (Hsub s (or_introl eq_refl))|]. exact (strings_single G _ s Hinv eq_refl).
    + intros [_ Hall']. f_equal. apply Hall', Hsub. left. reflexivity.
  - split; [discriminate|]. intros [_ Hall']. exfalso. inversion Hnd as [|? ? Hn _]; subst. apply Hn. left.
    rewrite (Hall' a), (Hall' b); [reflexivity|apply Hsub; right; left; reflexivity|apply Hsub; left; reflexivity].
Qed.

Theorem single_perm_eq cap G G' : 1 <= cap -> Permutation G G' ->
  single_of (fst (fold_left (strings_step cap) G ([], 0))) = single_of (fst (fold_left (strings_step cap) G' ([], 0))).
Proof.
  intros Hcap Hp. apply option_ext. intro s.
  rewrite (single_of_iff _ _ s (strings_fold_inv cap G Hcap)), (single_of_iff _ _ s (strings_fold_inv cap G' Hcap)).
  split; apply consists_of_perm_inv; [exact Hp|apply Permutation_sym, Hp].
Qed.

Theorem view_perm_eq ct e vl cap code G G' : 1 <= cap -> Permutation G G' ->
  view (acc_fold ct e vl cap code G) = view (acc_fold ct e vl cap code G').
Proof.
  intros Hcap Hp. unfold view, acc_fold.
  pose proof (fold_left_proj _ _ (fun a => (a_strings a, a_n a)) (acc_step_strings ct e vl cap code)) as S.
  pose proof (fold_left_proj _ (tris_step ct e vl code) (fun a => (a_fc a, a_c a)) (acc_step_tris ct e vl cap code)) as T.
  pose proof (fold_left_proj _ (fun s g => add_chars g s) a_chars (acc_step_chars ct e vl cap code)) as C.
  cbv beta in S, T.
  pose proof (single_perm_eq cap G G' Hcap Hp) as Hs. rewrite <- !(S _ acc0) in Hs. cbn [fst] in Hs.
  pose proof (tris_perm_eq ct e vl code G G' Hp) as Ht. rewrite <- !(T _ acc0) in Ht. injection Ht as -> ->.
  rewrite Hs, !C. cbn [acc0 a_chars]. rewrite (chars_perm_eq G G' Hp). reflexivity.
Qed.

(* the strict lexicographic order on keys that key_cmp decides *)
Definition klt (a b : Z * Z * Z) : Prop :=
  fst (fst a) < fst (fst b) \/
  (fst (fst a) = fst (fst b) /\ (snd (fst a) < snd (fst b) \/ (snd (fst a) = snd (fst b) /\ snd a < snd b))).

Lemma key_cmp_spec a b : CompareSpec (a = b) (klt a b) (klt b a) (key_cmp a b).
Proof.
  destruct a as [[a1 a2] a3], b as [[b1 b2] b3]. unfold key_cmp, klt. cbn [fst snd].
  destruct (Z.compare_spec a1 b1); [|constructor; lia|constructor; lia].
  destruct (Z.compare_spec a2 b2); [|constructor; lia|constructor; lia].
  destruct (Z.compare_spec a3 b3); constructor; [congruence|lia|lia].
Qed.

Lemma klt_irrefl a : ~ klt a a. Proof. unfold klt. lia. Qed.
Lemma klt_trans a b c : klt a b -> klt b c -> klt a c. Proof. unfold klt. lia. Qed.
Lemma klt_asym a b : klt a b -> klt b a -> False. Proof. unfold klt. lia. Qed.

Lemma key_cmp_refl a : key_cmp a a = Eq.
Proof. destruct (key_cmp_spec a a) as [_|H|H]; [reflexivity|destruct (klt_irrefl _ H)..]. Qed.

Lemma key_cmp_lt a b : klt a b -> key_cmp a b = Lt.
Proof.
  intro H. destruct (key_cmp_spec a b) as [E|_|H']; [|reflexivity|destruct (klt_asym _ _ H H')].
  rewrite E in H. destruct (klt_irrefl _ H).
Qed.

Lemma key_cmp_gt a b : klt b a -> key_cmp a b = Gt.
Proof.
  intro H. destruct (key_cmp_spec a b) as [E|H'|_]; [|destruct (klt_asym _ _ H H')|reflexivity].
  rewrite E in H. destruct (klt_irrefl _ H).
Qed.

Lemma vrle_leb_total : forall a b, vrle_leb a b = true \/ vrle_leb b a = true.
Proof.
  induction a as [|x a IH]; intros [|y b]; cbn [vrle_leb]; try (left; reflexivity); try (right; reflexivity).
  destruct (key_cmp_spec (vf_key x) (vf_key y)) as [E|H|H].
  - rewrite E, key_cmp_refl. apply IH.
  - left; reflexivity.
  - right. rewrite (key_cmp_lt _ _ H). reflexivity.
Qed.

Lemma vrle_leb_trans : forall a b c, vrle_leb a b = true -> vrle_leb b c = true -> vrle_leb a c = true.
Proof.
  induction a as [|x a IH]; intros [|y b] [|z c]; cbn [vrle_leb]; try reflexivity; try discriminate.
  destruct (key_cmp_spec (vf_key x) (vf_key y)) as [E1|H1|H1]; [| |discriminate];
  destruct (key_cmp_spec (vf_key y) (vf_key z)) as [E2|H2|H2]; try discriminate; intros A B.
  - rewrite E1, E2, key_cmp_refl. exact (IH b c A B).
  - rewrite E1, (key_cmp_lt _ _ H2). reflexivity.
  - rewrite <- E2, (key_cmp_lt _ _ H1). reflexivity.
  - rewrite (key_cmp_lt _ _ (klt_trans _ _ _ H1 H2)). reflexivity.
Qed.

Lemma vrle_leb_antisym_codes : forall a b, vrle_leb a b = true -> vrle_leb b a = true -> map vf_code a = map vf_code b.
Proof.
  induction a as [|x a IH]; intros [|y b]; cbn [vrle_leb map]; try reflexivity; try discriminate.
  destruct (key_cmp_spec (vf_key x) (vf_key y)) as [E|H|H]; [| |discriminate].
  - rewrite E, key_cmp_refl. intros H1 H2. f_equal; [|apply IH; assumption].
    unfold vf_key in E. injection E as Ec _ _. exact Ec.
  - intros _. rewrite (key_cmp_gt _ _ H). discriminate.
Qed.

Lemma vrle_of_sig_perm_eq L L' sig : Permutation L L' -> vrle_of_sig L sig = vrle_of_sig L' sig.
Proof.
  intro Hp. unfold vrle_of_sig. apply map_ext. intro i.
  pose proof (Permutation_map (fun r => snd (nth i r (0, 0))) (filter_perm (fun r => str_eqb (signature r) sig) _ _ Hp)) as Hc.
  rewrite (list_min_perm_eq _ _ Hc), (list_max_perm_eq _ _ Hc). reflexivity.
Qed.

Theorem to_vrles_perm_eq L L' : Permutation L L' -> to_vrles L = to_vrles L'.
Proof.
  intro Hp. unfold to_vrles.
  rewrite (map_ext (vrle_of_sig L') (vrle_of_sig L) (fun sig => eq_sym (vrle_of_sig_perm_eq L L' sig Hp))).
  (* a VRLE of L is determined by its codes, and two VRLEs each below the other have the same codes *)
  apply (isort_perm_eq vrle_leb (fun v => v = vrle_of_sig L (map vf_code v))).
  - intros a b _ _. apply vrle_leb_total.
  - intros a b c _ _ _. apply vrle_leb_trans.
  - intros a b Ha Hb H1 H2. rewrite Ha, Hb. rewrite (vrle_leb_antisym_codes a b H1 H2). reflexivity.
  - apply Permutation_map. apply (dedup_by_map_Permutation str_eqb str_eqb_eq). exact Hp.
  - apply Forall_forall. intros v Hv. apply in_map_iff in Hv as [sig [<- _]]. rewrite vrle_of_sig_codes. reflexivity.
Qed.

Lemma refine_all_view ct mp e : forall vs accs accs' n, Forall2 (fun a a' => view a = view a') accs accs' ->
  refine_all ct mp e n vs accs = refine_all ct mp e n vs accs'.
Proof.
  induction vs as [|v vs IH]; intros accs accs' n H; [reflexivity|].
  destruct H as [|a a' accs accs' Hv H]; [reflexivity|]. cbn [refine_all].
  rewrite (refine_one_view ct mp e n v a a' Hv). destruct (refine_one ct mp e n v a') as [fs n']. f_equal. apply IH. exact H.
Qed.

(* one coarse pattern: the refinement sees the examples only through each position's view *)
Theorem refine_vrle_perm_inv ct o e stripped gt strings strings' vrle r :
  1 <= z_max_strings_in_group o -> Permutation strings strings' ->
  refine_vrle ct o e stripped gt strings (map (rle_coarse ct e) strings) vrle = Ok r ->
  refine_vrle ct o e stripped gt strings' (map (rle_coarse ct e) strings') vrle = Ok r.
Proof.
  intros Hcap Hp. rewrite !refine_vrle_eq, !mine_of_filter.
  destruct (vrle2re false (o_full_escape o) e stripped true (map frag_of_vfrag vrle)) as [regex|err]; [cbn [bind]|discriminate].
  destruct (mapM _ (filter _ strings)) as [groups|err] eqn:Eg; [cbn [bind]|discriminate].
  destruct (mapM_Permutation _ _ _ (filter_perm _ _ _ Hp) groups Eg) as [groups' [-> Hg]]. cbn [bind].
  intro H. injection H as <-. f_equal.
  assert (Hlen : forall gs, In gs groups -> length gs = length vrle).
  { intros gs Hin. destruct (mapM_In _ _ _ _ Eg Hin) as [ex [_ Hex]]. apply (look_ok _ _ _ _ _ Hex). }
  assert (Hlen' : forall gs, In gs groups' -> length gs = length vrle).
  { intros gs Hin. apply Hlen. exact (Permutation_in gs (Permutation_sym Hg) Hin). }
  set (init := map (fun _ : vfrag => acc0) vrle).
  assert (Hinit : length init = length vrle) by apply map_length.
  symmetry. apply refine_all_view. apply (Forall2_from_nth _ acc0).
  - rewrite !fold_len by assumption. reflexivity.
  - intros i Hi. rewrite fold_len in Hi by assumption. rewrite !fold_nth by assumption.
    unfold init. rewrite nth_map_const.
    exact (view_perm_eq ct e (o_vlf o) (z_max_strings_in_group o) _ _ _ Hcap (Permutation_map _ Hg)).
Qed.

Theorem batch_extract_perm_inv ct o e stripped gt ex ex' r :
  1 <= z_max_strings_in_group o -> Permutation (ex_strings ex) (ex_strings ex') ->
  batch_extract ct o e stripped gt ex = Ok r -> batch_extract ct o e stripped gt ex' = Ok r.
Proof.
  intros Hcap Hp H. destruct r as [merged rex]. apply batch_extract_iff in H as (refined & Eref & -> & Erx).
  apply batch_extract_iff. exists refined. split; [|split; [reflexivity|exact Erx]].
  rewrite <- (to_vrles_perm_eq _ _ (dedup_by_map_Permutation rle_eqb rle_eqb_eq (rle_coarse ct e) _ _ Hp)).
  exact (mapM_impl _ _ _ (fun v y => refine_vrle_perm_inv ct o e stripped gt _ _ v y Hcap Hp) refined Eref).
Qed.

Corollary batch_extract_perm_err ct o e stripped gt ex ex' err :
  1 <= z_max_strings_in_group o -> Permutation (ex_strings ex) (ex_strings ex') ->
  batch_extract ct o e stripped gt ex = Err err -> exists err', batch_extract ct o e stripped gt ex' = Err err'.
Proof.
  intros Hcap Hp H. destruct (batch_extract ct o e stripped gt ex') as [r|err'] eqn:E'; [|exists err'; reflexivity].
  rewrite (batch_extract_perm_inv ct o e stripped gt ex' ex r Hcap (Permutation_sym Hp) E') in H. discriminate.
Qed.

(* the hypothesis on max_strings_in_group cannot be dropped: with a cap of 0 the first example analysed fixes the fragment *)
Example cap_zero_order_matters :
  view (acc_fold py_chartab [] false 0 cUC [[97]; [98]]) <> view (acc_fold py_chartab [] false 0 cUC [[98]; [97]]).
Proof. vm_compute. discriminate. Qed.
