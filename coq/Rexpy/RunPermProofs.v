(* C14 for the whole run: when the number of distinct strings does not exceed do_all_exceptions (so that nothing is
   ever sampled), the expressions returned by Extractor(...).extract() are the same for every order of the input
   items - list order, or the key order of a frequency dictionary. *)
From Coq Require Import ZArith List Bool Lia Permutation.
From Tdda Require Import Base.ListFacts Base.Sexp Base.Str Rexpy.Chars Rexpy.Pipeline Rexpy.PipelineProofs Rexpy.BatchProofs Rexpy.PermProofs Rexpy.CleanProofs.
Import ListNotations.
Open Scope Z_scope.

Definition first_of (mt : match_table) (rexes : list str) (sf : str * Z) : option nat :=
  match first_matching mt rexes (fst sf) with Ok y => y | Err _ => None end.

Definition fails_of (mt : match_table) (rexes : list str) (ps : list (str * Z)) : list (str * Z) :=
  map fst (filter (fun pf : str * Z * option nat => match snd pf with None => true | Some _ => false end)
                  (map (fun sf => (sf, first_of mt rexes sf)) ps)).
Definition freqs_of (mt : match_table) (rexes : list str) (ps : list (str * Z)) : list Z :=
  map (fun j => fold_right Z.add 0
                  (map (fun pf : str * Z * option nat => match snd pf with
                                   | Some k => if Nat.eqb k j then snd (fst pf) else 0
                                   | None => 0 end) (map (fun sf => (sf, first_of mt rexes sf)) ps)))
      (seq 0 (length rexes)).

(* once every lookup succeeds, the check is a function of the stored pairs one by one *)
Lemma find_non_matches_eq mt rexes all :
  find_non_matches mt rexes all =
  (do _ <- mapM (fun sf => first_matching mt rexes (fst sf)) (pairs all);
   Ok (fails_of mt rexes (pairs all), freqs_of mt rexes (pairs all))).
Proof.
  unfold find_non_matches, pairs. destruct rexes as [|r0 rs].
  - (* no expression: every lookup gives None, every pair fails *)
    induction (combine _ _) as [|p ps IH]; [reflexivity|]. cbn [mapM first_matching bind].
    destruct (mapM _ ps); [cbn [bind] in *|discriminate]. injection IH as IH.
    change (fails_of mt [] (p :: ps)) with (p :: fails_of mt [] ps). rewrite <- IH. reflexivity.
  - destruct (mapM _ _) as [firsts|e1] eqn:Em; [cbn [bind]|reflexivity].
    rewrite (mapM_combine _ None _ _ Em). reflexivity.
Qed.

Lemma freqs_of_perm_eq mt rexes ps ps' : Permutation ps ps' -> freqs_of mt rexes ps = freqs_of mt rexes ps'.
Proof. intro Hp. unfold freqs_of. apply map_ext. intro j. apply sum_perm, Permutation_map, Permutation_map, Hp. Qed.

Lemma fails_of_Permutation mt rexes ps ps' : Permutation ps ps' -> Permutation (fails_of mt rexes ps) (fails_of mt rexes ps').
Proof. intro Hp. unfold fails_of. apply Permutation_map, filter_perm, Permutation_map, Hp. Qed.

Lemma find_non_matches_perm_inv mt rexes all all' fails rf :
  Permutation (pairs all) (pairs all') ->
  find_non_matches mt rexes all = Ok (fails, rf) ->
  exists fails', find_non_matches mt rexes all' = Ok (fails', rf) /\ Permutation fails fails'.
Proof.
  intro Hp. rewrite !find_non_matches_eq.
  destruct (mapM _ (pairs all)) as [firsts|e1] eqn:Em; [cbn [bind]|discriminate]. intro H. injection H as <- <-.
  destruct (mapM_Permutation _ _ _ Hp firsts Em) as [firsts' [-> _]].
  exists (fails_of mt rexes (pairs all')). rewrite (freqs_of_perm_eq mt rexes _ _ Hp).
  split; [reflexivity|apply fails_of_Permutation, Hp].
Qed.

Lemma find_non_matches_ok_strings mt rexes all all' fails rf :
  length (ex_strings all) = length (ex_freqs all) -> length (ex_strings all') = length (ex_freqs all') ->
  Permutation (ex_strings all) (ex_strings all') ->
  find_non_matches mt rexes all = Ok (fails, rf) ->
  exists fails' rf', find_non_matches mt rexes all' = Ok (fails', rf').
Proof.
  intros Hl Hl' Hp. rewrite !find_non_matches_eq. unfold pairs.
  rewrite 2 (mapM_map (first_matching mt rexes) fst), (map_fst_combine _ _ Hl), (map_fst_combine _ _ Hl').
  destruct (mapM _ (ex_strings all)) as [firsts|e1] eqn:Em; [cbn [bind]|discriminate]. intros _.
  destruct (mapM_Permutation _ _ _ Hp firsts Em) as [firsts' [-> _]]. eexists _, _. reflexivity.
Qed.

Lemma find_non_matches_fails_length mt rexes all fails rf :
  find_non_matches mt rexes all = Ok (fails, rf) -> (length fails <= length (pairs all))%nat.
Proof.
  rewrite find_non_matches_eq. destruct (mapM _ _); [cbn [bind]|discriminate].
  intro H. injection H as <- _. unfold fails_of. rewrite map_length, <- (map_length (fun sf => (sf, first_of mt rexes sf))).
  apply filter_length_le.
Qed.

Lemma sample_non_matches_all o mt samples rexes all maxN :
  Z.of_nat (length (pairs all)) <= z_do_all_exceptions o ->
  sample_non_matches o mt samples rexes all maxN =
  match find_non_matches mt rexes all with Ok (fails, rf) => Ok (fails, rf, samples) | Err err => Err err end.
Proof.
  intro Hn. unfold sample_non_matches. destruct (find_non_matches mt rexes all) as [[failures rf]|err] eqn:Ef; [cbn [bind]|reflexivity].
  destruct maxN as [mx|]; [|reflexivity]. pose proof (find_non_matches_fails_length _ _ _ _ _ Ef) as Hlen.
  replace (Z.ltb (z_do_all_exceptions o) (Z.of_nat (length failures))) with false by (symmetry; apply Z.ltb_ge; lia).
  rewrite andb_false_r. reflexivity.
Qed.

Lemma loop_one_pass fuel ct o e stripped gt mt all samples ex attempt :
  stored_final ct o all -> incl (ex_strings all) (ex_strings ex) ->
  Z.of_nat (length (pairs all)) <= z_do_all_exceptions o ->
  extract_loop (S fuel) ct o e stripped gt mt all samples ex attempt =
  match batch_extract ct o e stripped gt ex with
  | Err err => Err err
  | Ok (merged, rex) =>
    match find_non_matches mt rex all with
    | Err err => Err err
    | Ok (fails, rf) =>
      Ok (merged, rex, rf, ex_strings (fst (clean ct o (map (fun sf : str * Z => (Some (fst sf), snd sf)) fails))), ex, samples, attempt)
    end
  end.
Proof.
  intros Hf Hin Hn. cbn [extract_loop].
  (* the continuations are large: they are put aside while the two results are analysed *)
  match goal with |- bind _ ?k = _ => set (K := k) end.
  destruct (batch_extract ct o e stripped gt ex) as [[merged rex]|err]; [|reflexivity].
  subst K. cbn [bind]. rewrite (sample_non_matches_all o mt samples rex all _ Hn).
  match goal with |- bind _ ?k = _ => set (K := k) end.
  destruct (find_non_matches mt rex all) as [[fails rf]|err] eqn:Ef; [|reflexivity].
  subst K. cbn [bind].
  set (failex := fst (clean ct o (map (fun sf : str * Z => (Some (fst sf), snd sf)) fails))).
  pose proof (failex_sub ct o all fails Hf (find_non_matches_failures_sub _ _ _ _ _ Ef)) as Hfx.
  rewrite (proj2 (filter_nil_iff _ (combine (ex_strings failex) (ex_freqs failex)))); [destruct (ex_strings failex); reflexivity|].
  intros [s f] Hsf. apply negb_false_iff, mem_str_In, Hin, Hfx. exact (in_combine_l _ _ _ _ Hsf).
Qed.

Lemma thin_extras_perm_eq e l l' : Permutation l l' -> thin_extras e l = thin_extras e l'.
Proof.
  intro Hp. unfold thin_extras. destruct e as [|a [|b e]]; try reflexivity.
  apply filter_ext. intro L. apply existsb_perm. exact Hp.
Qed.

(* what run_extractor does with the result of its loop *)
Definition run_finish (o : ropts) (e : str) (stripped : bool) (merged : list (list frag)) (rex : list str) (rf : list Z)
           (lastfail : list str) (ex : examples) (nleft : nat) (passes : Z) : res loop_out :=
  let bad := find_bad_patterns o rf in
  let keep := filter (fun i => negb (mem_nat i bad)) (seq 0 (length rex)) in
  let merged' := map (fun i => nth i merged []) keep in
  let rex' := map (fun i => nth i rex []) keep in
  do final <- (if o_dialect_out o then mapM (vrle2re true (o_full_escape o) e stripped (o_tag o)) merged' else Ok rex');
  Ok {| lo_rex := final; lo_none := false; lo_examples := ex; lo_passes := passes;
        lo_samples_left := nleft; lo_last_failures := lastfail |}.

(* the run when nothing is sampled: clean, one batch extraction over all stored strings, one check, pruning *)
Definition run_small (ct : chartab) (o : ropts) (gt : groups_table) (mt : match_table) (nleft : nat)
           (all : examples) (stripped : bool) : res loop_out :=
  let ex := fst (clean ct o (items_of all)) in
  let e := norm_extras (thin_extras (o_extra o) (ex_strings ex)) in
  match ex_strings ex with
  | [] => Ok {| lo_rex := []; lo_none := true; lo_examples := ex; lo_passes := 0;
                lo_samples_left := nleft; lo_last_failures := [] |}
  | _ => do br <- batch_extract ct o e stripped gt ex;
         do chk <- find_non_matches mt (snd br) all;
         run_finish o e stripped (fst br) (snd br) (snd chk)
                    (ex_strings (fst (clean ct o (map (fun sf : str * Z => (Some (fst sf), snd sf)) (fst chk))))) ex nleft 1
  end.

Theorem run_extractor_small ct o gt mt samples items :
  (forall it, In it items -> 0 <= snd it) ->
  Z.of_nat (length (ex_strings (fst (clean ct o items)))) <= z_do_all_exceptions o ->
  run_extractor ct o gt mt samples items = run_small ct o gt mt (length samples) (fst (clean ct o items)) (snd (clean ct o items)).
Proof.
  intros Hnn Hsmall. unfold run_extractor, run_small.
  pose proof (clean_wf ct o items Hnn) as Hw. pose proof (clean_stored_final ct o items) as Hf.
  destruct (clean ct o items) as [all stripped]. cbn [fst snd] in *.
  assert (Hn : Z.of_nat (length (pairs all)) <= z_do_all_exceptions o).
  { unfold pairs. rewrite combine_length, <- (proj1 Hw), Nat.min_id. exact Hsmall. }
  rewrite (sample_non_matches_all o mt samples [] all _ Hn). cbn [find_non_matches bind]. fold (items_of all).
  destruct (ex_strings (fst (clean ct o (items_of all)))) as [|x0 xs]; [reflexivity|].
  rewrite Nat.add_succ_r, (loop_one_pass _ _ _ _ _ _ _ _ _ _ _ Hf (fun t => proj2 (clean_items_of_strings ct o all Hw Hf t)) Hn).
  destruct (batch_extract _ _ _ _ _ _) as [[merged rex]|err]; [cbn [bind fst snd]|reflexivity].
  destruct (find_non_matches mt rex all) as [[fails rf]|err]; reflexivity.
Qed.

Definition same_expressions (r r' : res loop_out) : Prop :=
  forall lo, r = Ok lo ->
  exists lo', r' = Ok lo' /\ lo_rex lo' = lo_rex lo /\ lo_none lo' = lo_none lo /\ lo_passes lo' = lo_passes lo.

Lemma run_finish_congr o e stripped merged rex rf rf' lf lf' ex ex' n n' p :
  find_bad_patterns o rf' = find_bad_patterns o rf ->
  same_expressions (run_finish o e stripped merged rex rf lf ex n p) (run_finish o e stripped merged rex rf' lf' ex' n' p).
Proof.
  intros Hbad lo. unfold run_finish. rewrite Hbad.
  destruct (if o_dialect_out o then _ else _) as [final|err]; [cbn [bind]|discriminate].
  intro H. injection H as <-. eexists. split; [reflexivity|]. repeat split.
Qed.

(* Two inputs whose stored strings agree up to order give the same expressions as soon as their checks succeed
   together and lead to the same pruning. *)
Theorem run_extractor_congr ct o gt mt samples samples' items items' :
  (forall it, In it items -> 0 <= snd it) -> (forall it, In it items' -> 0 <= snd it) ->
  Permutation (ex_strings (fst (clean ct o items))) (ex_strings (fst (clean ct o items'))) ->
  snd (clean ct o items) = snd (clean ct o items') ->
  (forall rex fails rf, find_non_matches mt rex (fst (clean ct o items)) = Ok (fails, rf) ->
     exists fails' rf', find_non_matches mt rex (fst (clean ct o items')) = Ok (fails', rf') /\
                        find_bad_patterns o rf' = find_bad_patterns o rf) ->
  1 <= z_max_strings_in_group o ->
  Z.of_nat (length (ex_strings (fst (clean ct o items)))) <= z_do_all_exceptions o ->
  same_expressions (run_extractor ct o gt mt samples items) (run_extractor ct o gt mt samples' items').
Proof.
  intros Hnn Hnn' Hstr Hstripped Hrf Hcap Hsmall.
  rewrite (run_extractor_small ct o gt mt samples items Hnn Hsmall), (run_extractor_small ct o gt mt samples' items' Hnn'), <- Hstripped
    by (rewrite <- (Permutation_length Hstr); exact Hsmall).
  pose proof (clean_wf ct o items Hnn) as Hw. pose proof (clean_wf ct o items' Hnn') as Hw'.
  pose proof (clean_stored_final ct o items) as Hf. pose proof (clean_stored_final ct o items') as Hf'.
  generalize (snd (clean ct o items)) as stripped. intro stripped.
  set (all := fst (clean ct o items)) in *. set (all' := fst (clean ct o items')) in *. unfold run_small.
  set (ex := fst (clean ct o (items_of all))). set (ex' := fst (clean ct o (items_of all'))).
  assert (Hex : Permutation (ex_strings ex) (ex_strings ex')).
  { apply NoDup_Permutation; [apply clean_NoDup..|].
    intro t. unfold ex, ex'. rewrite (clean_items_of_strings ct o all Hw Hf), (clean_items_of_strings ct o all' Hw' Hf').
    split; apply Permutation_in; [exact Hstr|apply Permutation_sym; exact Hstr]. }
  rewrite <- (thin_extras_perm_eq (o_extra o) _ _ Hex).
  set (e := norm_extras (thin_extras (o_extra o) (ex_strings ex))). clearbody e.
  destruct (ex_strings ex) as [|x0 xs] eqn:Eex.
  - apply Permutation_nil in Hex. rewrite Hex. intros lo H. injection H as <-. eexists. split; [reflexivity|]. repeat split.
  - destruct (ex_strings ex') as [|y0 ys] eqn:Eex'; [apply Permutation_sym, Permutation_nil in Hex; discriminate|].
    rewrite <- Eex, <- Eex' in Hex.
    destruct (batch_extract ct o e stripped gt ex) as [[merged rex]|err] eqn:Eb; [|discriminate 1].
    rewrite (batch_extract_perm_inv ct o e stripped gt ex ex' _ Hcap Hex Eb). cbn [bind fst snd].
    destruct (find_non_matches mt rex all) as [[fails rf]|err] eqn:Efn; [cbn [bind fst snd]|discriminate 1].
    destruct (Hrf rex fails rf Efn) as (fails' & rf' & -> & Hbad).
    apply run_finish_congr. exact Hbad.
Qed.

Theorem run_extractor_perm_inv ct o gt mt samples samples' items items' :
  Permutation items items' ->
  (forall it, In it items -> 0 <= snd it) ->
  1 <= z_max_strings_in_group o ->
  Z.of_nat (length (ex_strings (fst (clean ct o items)))) <= z_do_all_exceptions o ->
  same_expressions (run_extractor ct o gt mt samples items) (run_extractor ct o gt mt samples' items').
Proof.
  intros Hp Hnn Hcap Hsmall. destruct (clean_perm ct o items items' Hp) as (Hpairs & Hstr & Hstripped).
  apply run_extractor_congr; try assumption.
  - intros it Hin. apply Hnn. exact (Permutation_in it (Permutation_sym Hp) Hin).
  - intros rex fails rf H. destruct (find_non_matches_perm_inv mt rex _ _ fails rf Hpairs H) as [fails' [H' _]].
    exists fails', rf. split; [exact H'|reflexivity].
Qed.

(* Two inputs whose stored strings are the same set - whatever the order and the frequencies - give the same
   expressions, provided nothing is sampled and no pruning option (which is defined in terms of frequencies) is on *)
Theorem run_extractor_same_strings ct o gt mt samples samples' items items' :
  (forall it, In it items -> 0 <= snd it) -> (forall it, In it items' -> 0 <= snd it) ->
  Permutation (ex_strings (fst (clean ct o items))) (ex_strings (fst (clean ct o items'))) ->
  snd (clean ct o items) = snd (clean ct o items') ->
  no_pruning o -> 1 <= z_max_strings_in_group o ->
  Z.of_nat (length (ex_strings (fst (clean ct o items)))) <= z_do_all_exceptions o ->
  same_expressions (run_extractor ct o gt mt samples items) (run_extractor ct o gt mt samples' items').
Proof.
  intros Hnn Hnn' Hstr Hstripped Hnp Hcap Hsmall. apply run_extractor_congr; try assumption.
  intros rex fails rf H.
  destruct (find_non_matches_ok_strings mt rex _ _ fails rf (clean_lengths ct o items) (clean_lengths ct o items') Hstr H)
    as (fails' & rf' & H').
  exists fails', rf'. split; [exact H'|]. rewrite !(find_bad_patterns_none o _ Hnp). reflexivity.
Qed.

Theorem run_extractor_same_keys ct o gt mt samples samples' items items' :
  (forall it, In it items -> 0 <= snd it) -> (forall it, In it items' -> 0 <= snd it) ->
  (forall t c, (exists n, In (t, n, c) (omap (norm ct o) items)) <-> (exists n, In (t, n, c) (omap (norm ct o) items'))) ->
  no_pruning o -> 1 <= z_max_strings_in_group o ->
  Z.of_nat (length (ex_strings (fst (clean ct o items)))) <= z_do_all_exceptions o ->
  same_expressions (run_extractor ct o gt mt samples items) (run_extractor ct o gt mt samples' items').
Proof.
  intros Hnn Hnn' Hsame. destruct (clean_same_keys ct o items items' Hsame) as [Hs Hb].
  apply run_extractor_same_strings; assumption.
Qed.

Theorem run_extractor_repeat ct o gt mt samples samples' items it k :
  (forall x, In x items -> 0 <= snd x) -> In it items ->
  no_pruning o -> 1 <= z_max_strings_in_group o ->
  Z.of_nat (length (ex_strings (fst (clean ct o items)))) <= z_do_all_exceptions o ->
  same_expressions (run_extractor ct o gt mt samples items) (run_extractor ct o gt mt samples' (items ++ repeat it k)).
Proof.
  intros Hnn Hin. apply run_extractor_same_keys; [exact Hnn| |].
  - intros x Hx. apply in_app_or in Hx as [Hx|Hx]; [apply Hnn; exact Hx|]. apply repeat_spec in Hx. subst x. apply Hnn. exact Hin.
  - intros t c. split; intros [n Hn].
    + exists n. rewrite omap_app. apply in_or_app. left. exact Hn.
    + rewrite omap_app in Hn. apply in_app_or in Hn as [Hn|Hn]; [exists n; exact Hn|].
      apply In_omap in Hn as [it' [Hr Hx]]. apply repeat_spec in Hr. subst it'. exists n. apply In_omap. exists it. split; assumption.
Qed.

(* a list of strings (None = null), and any frequency dictionary with the same keys of non-zero count *)
Definition list_items (l : list (option str)) : list (option str * Z) := map (fun s => (s, 1)) l.

Theorem run_extractor_list_or_dict ct o gt mt samples samples' (l : list (option str)) (d : list (option str * Z)) :
  (forall kv, In kv d -> 0 <= snd kv) ->
  (forall s, In s l <-> exists n, In (s, n) d /\ n <> 0) ->
  no_pruning o -> 1 <= z_max_strings_in_group o ->
  Z.of_nat (length (ex_strings (fst (clean ct o (list_items l))))) <= z_do_all_exceptions o ->
  same_expressions (run_extractor ct o gt mt samples (list_items l)) (run_extractor ct o gt mt samples' d).
Proof.
  intros Hnn Hkeys. apply run_extractor_same_keys; [|exact Hnn|].
  - intros x Hx. unfold list_items in Hx. apply in_map_iff in Hx as [s [<- _]]. cbn. lia.
  - intros t c. split.
    + intros [n Hn]. apply In_omap in Hn as [[s m] [Hin Hx]]. unfold list_items in Hin. apply in_map_iff in Hin as [s' [E Hs]].
      injection E as -> <-. destruct (proj1 (Hkeys s) Hs) as [m [Hd Hm]].
      exists m. apply In_omap. exists (s, m). split; [exact Hd|]. rewrite (norm_count ct o s m Hm), Hx. reflexivity.
    + intros [n Hn]. apply In_omap in Hn as [[s m] [Hin Hx]].
      assert (Hm : m <> 0).
      { intro E. subst m. unfold norm in Hx. destruct s; discriminate. }
      rewrite (norm_count ct o s m Hm) in Hx. destruct (norm ct o (s, 1)) as [[[t1 n1] c1]|] eqn:E1; [|discriminate].
      injection Hx as <- _ <-. exists n1. apply In_omap. exists (s, 1). split; [|exact E1].
      unfold list_items. apply in_map_iff. exists s. split; [reflexivity|]. apply Hkeys. exists m. split; assumption.
Qed.
