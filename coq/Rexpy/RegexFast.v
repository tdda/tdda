(* Proofs about Regex.match_fast, the polynomial matcher (reachable positions) that the extracted model runs:
   it decides exactly what the backtracking matcher of the text theorems (match_items) decides, so what those
   theorems say of re_model_match / re_model_fullmatch holds of what is executed (Props/C03.v C03_fast_matcher_equiv). *)
From Coq Require Import ZArith List Bool Lia.
From Tdda Require Import Base.ListFacts Base.Sexp Rexpy.Chars Rexpy.Regex.
Import ListNotations.

Lemma take_while_le (p : Z -> bool) s : (take_while p s <= List.length s)%nat.
Proof. induction s as [|c s IH]; cbn [take_while List.length]; [lia|]. destruct (p c); lia. Qed.

Section Fast.
Variable ct : chartab.
Variable s : str.

Definition bounded (ps : list nat) : Prop := forall p, In p ps -> (p <= List.length s)%nat.

Lemma step_bounded it ps : bounded ps -> bounded (step_positions ct s it ps).
Proof.
  intros Hb q Hq. unfold step_positions in Hq. apply nodup_In in Hq. apply in_flat_map in Hq as [p [Hp Hq]].
  apply in_map_iff in Hq as [k [<- Hk]]. apply filter_In in Hk as [Hk _]. apply in_seq in Hk.
  pose proof (take_while_le (sem_cset ct (i_set it)) (skipn p s)) as Ht. rewrite skipn_length in Ht.
  specialize (Hb p Hp). lia.
Qed.

Lemma step_spec it rest ps :
  existsb (fun q => match_items ct rest (skipn q s)) (step_positions ct s it ps)
  = existsb (fun p => match_items ct (it :: rest) (skipn p s)) ps.
Proof.
  unfold step_positions. rewrite existsb_nodup, existsb_flat_map. apply existsb_ext_in. intros p _.
  rewrite existsb_map, existsb_filter. cbn [match_items]. apply existsb_ext_in. intros k _.
  rewrite skipn_add. reflexivity.
Qed.

Lemma fast_from items : forall ps, bounded ps ->
  existsb (Nat.eqb (List.length s)) (fold_left (fun ps it => step_positions ct s it ps) items ps)
  = existsb (fun p => match_items ct items (skipn p s)) ps.
Proof.
  induction items as [|it rest IH]; intros ps Hb.
  - cbn [fold_left match_items]. apply existsb_ext_in. intros p Hp. specialize (Hb p Hp).
    destruct (Nat.eqb_spec (List.length s) p) as [E|E].
    + subst p. rewrite skipn_all. reflexivity.
    + destruct (skipn p s) as [|c r] eqn:Es; [|reflexivity].
      assert (Hl : List.length (skipn p s) = O) by (rewrite Es; reflexivity). rewrite skipn_length in Hl. lia.
  - cbn [fold_left]. rewrite IH by (apply step_bounded; exact Hb). apply step_spec.
Qed.
End Fast.

Theorem match_fast_spec ct items s : match_fast ct items s = match_items ct items s.
Proof.
  unfold match_fast. rewrite fast_from.
  - cbn [existsb skipn]. apply orb_false_r.
  - intros p [<-|[]]. lia.
Qed.

Theorem re_fast_match_spec ct text s : re_fast_match ct text s = re_model_match ct text s.
Proof.
  unfold re_fast_match, re_model_match. destruct (parse_regex text) as [items|]; [|reflexivity].
  rewrite match_fast_spec. destruct (drop_final_newline s); [rewrite match_fast_spec|]; reflexivity.
Qed.

Theorem re_fast_fullmatch_spec ct text s : re_fast_fullmatch ct text s = re_model_fullmatch ct text s.
Proof.
  unfold re_fast_fullmatch, re_model_fullmatch. destruct (parse_regex text); [rewrite match_fast_spec|]; reflexivity.
Qed.
