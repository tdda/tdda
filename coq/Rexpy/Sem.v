(* Semantics of refined patterns at the level of their structure (not their text): which strings a
   fragment list matches, reading each atom as the set of characters its regular expression denotes
   and each (min, max) pair as rexpy's quantifier rendering does. *)
From Coq Require Import ZArith List.
From Tdda Require Import Base.Sexp Rexpy.Chars Rexpy.Pipeline.
Import ListNotations.
Open Scope Z_scope.

(* how many repetitions the rendered quantifier allows: M = None renders '*' when m = 0 and '+' otherwise;
   otherwise {m,M} (with the abbreviations for m = M, and '?') *)
Definition count_ok (m : Z) (M : option Z) (n : nat) : Prop :=
  match M with
  | None => m = 0 \/ (1 <= n)%nat
  | Some M' => m <= Z.of_nat n <= M'
  end.

(* an unescaped character of an alphanumeric group: a dot matches anything, the others are literal *)
Definition raw_sem (c x : Z) : bool := Z.eqb c 46 || Z.eqb x c.

Definition atom_pred (ct : chartab) (out : bool) (e : str) (a : atom) : option (Z -> bool) :=
  match a with
  | ALit [c] => Some (Z.eqb c)
  | ALit _ => None
  | ARaw c => Some (raw_sem c)
  | AClass code => Some (cat_sem ct out e code)
  | ABracket cs => Some (fun x => memc x cs)
  end.

Definition frag_matches (ct : chartab) (out : bool) (e : str) (f : frag) (s : str) : Prop :=
  match atom_pred ct out e (f_atom f) with
  | Some p => forallb p s = true /\ count_ok (f_min f) (f_max f) (length s)
  | None => match f_atom f with
            | ALit w => s = w /\ f_min f = 1 /\ f_max f = Some 1
            | _ => False
            end
  end.

Inductive matches_frags (ct : chartab) (out : bool) (e : str) : list frag -> str -> Prop :=
| mf_nil : matches_frags ct out e [] []
| mf_cons f fs s1 s2 : frag_matches ct out e f s1 -> matches_frags ct out e fs s2 ->
                       matches_frags ct out e (f :: fs) (s1 ++ s2).

Lemma matches_frags_app ct out e fs1 fs2 s1 s2 :
  matches_frags ct out e fs1 s1 -> matches_frags ct out e fs2 s2 -> matches_frags ct out e (fs1 ++ fs2) (s1 ++ s2).
Proof.
  induction 1 as [|f fs a b Hf _ IH]; intro H2; [exact H2|].
  rewrite <- app_assoc. cbn [app]. constructor; [exact Hf|apply IH; exact H2].
Qed.

Lemma matches_frags_single ct out e f s : frag_matches ct out e f s -> matches_frags ct out e [f] s.
Proof. intro H. rewrite <- (app_nil_r s). constructor; [exact H|constructor]. Qed.

Lemma insert_char_In c l x : In x (insert_char c l) <-> c = x \/ In x l.
Proof.
  induction l as [|d l IH]; cbn [insert_char]; [reflexivity|].
  destruct (Z.ltb c d); [reflexivity|]. destruct (Z.eqb_spec c d) as [->|Hne]; cbn [In].
  - split; [intro H; right; exact H|intros [->|H]; [left; reflexivity|exact H]].
  - split.
    + intros [H|H]; [right; left; exact H|]. apply IH in H as [H|H]; [left; exact H|right; right; exact H].
    + intros [H|[H|H]]; [right; apply IH; left; exact H|left; exact H|right; apply IH; right; exact H].
Qed.

Lemma add_chars_In s : forall set x, In x (add_chars s set) <-> In x s \/ In x set.
Proof.
  unfold add_chars. induction s as [|c s IH]; intros set x; cbn [fold_left In].
  - split; [intro H; right; exact H|intros [[]|H]; exact H].
  - split.
    + intro H. apply IH in H as [H|H]; [left; right; exact H|]. apply insert_char_In in H as [H|H]; [left; left; exact H|right; exact H].
    + intros [[H|H]|H]; apply IH; [right; apply insert_char_In; left; exact H|left; exact H|right; apply insert_char_In; right; exact H].
Qed.

Lemma memc_In c s : memc c s = true <-> In c s.
Proof.
  unfold memc. split.
  - intro H. apply existsb_exists in H as [x [Hx He]]. apply Z.eqb_eq in He. subst. exact Hx.
  - intro H. apply existsb_exists. exists c. split; [exact H|apply Z.eqb_refl].
Qed.

Lemma memc_false_neq c l k : memc c l = false -> memc k l = true -> Z.eqb c k = false.
Proof.
  intros H Hk. destruct (Z.eqb_spec c k) as [->|]; [congruence|reflexivity].
Qed.

Lemma forallb_memc (P : Z -> bool) l c : forallb P l = true -> memc c l = true -> P c = true.
Proof. intros Hf Hm. apply memc_In in Hm. rewrite forallb_forall in Hf. apply Hf. exact Hm. Qed.

Lemma memc_iff c l (b : bool) : (In c l <-> b = true) -> memc c l = b.
Proof.
  intro H. destruct b; [apply memc_In, H; reflexivity|]. destruct (memc c l) eqn:E; [|reflexivity].
  apply memc_In, H in E. discriminate E.
Qed.
