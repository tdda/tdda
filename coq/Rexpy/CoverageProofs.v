(* C18: the coverage figures.  The rows of the greedy loop are a function of the expressions listed so far (alive),
   and every property of a run is an instance of one invariant rule (incremental_invariant). *)
From Coq Require Import ZArith List Bool Lia.
From Tdda Require Import Base.ListFacts Rexpy.Coverage.
Import ListNotations.
Open Scope Z_scope.

Definition weight (dedup : bool) (r : example_row) : Z := if dedup then 1 else er_freq r.

Lemma mem_natb_In p l : mem_natb p l = true <-> In p l.
Proof. apply existsb_eqb_In. Qed.

Definition sum_incr (dedup : bool) (cs : list cov) : Z :=
  fold_right Z.add 0 (map (fun c => if dedup then c_incr_uniq c else c_incr c) cs).

Lemma sum_incr_app d a b : sum_incr d (a ++ b) = sum_incr d a + sum_incr d b.
Proof. unfold sum_incr. rewrite map_app. induction (map _ a) as [|x l IH]; simpl; lia. Qed.

Lemma n_examples_weight rows d : n_examples rows d = fold_right Z.add 0 (map (weight d) rows).
Proof.
  destruct d; [|reflexivity]. unfold n_examples, weight.
  induction rows as [|r rows IH]; [reflexivity|]. cbn [map fold_right length]. rewrite <- IH. lia.
Qed.

Lemma zmax_l_ge l x : In x l -> x <= zmax_l l.
Proof. induction l as [|y l IH]; simpl; [tauto|]. intros [<-|H]; [lia|]. specialize (IH H). lia. Qed.

Lemma first_ge_spec l t : forall i0, 0 < t -> zmax_l l = t ->
  exists k, first_ge l t i0 = (i0 + k)%nat /\ (k < length l)%nat /\ nth k l 0 = t.
Proof.
  induction l as [|x l IH]; intros i0 Ht Hm; simpl in *; [lia|].
  destruct (Z.ltb_spec x t).
  - assert (zmax_l l = t) by lia. destruct (IH (S i0) Ht H0) as [k (H1 & H2 & H3)].
    exists (S k). repeat split; [lia|lia|exact H3].
  - exists O. repeat split; [lia|lia|]. lia.
Qed.

Lemma nth_totals rows np d p : (p < np)%nat -> nth p (totals_of rows np d) 0 = live_total rows p d.
Proof. exact (nth_map_seq (fun p => live_total rows p d) np p 0). Qed.

Lemma totals_length rows np d : length (totals_of rows np d) = np.
Proof. unfold totals_of. rewrite map_length, seq_length. reflexivity. Qed.

Lemma totals_le_max rows np d q : (q < np)%nat -> live_total rows q d <= zmax_l (totals_of rows np d).
Proof.
  intro H. rewrite <- (nth_totals rows np d q H). apply zmax_l_ge, nth_In. rewrite totals_length. exact H.
Qed.

(* the loop picks the first expression whose live total is the largest *)
Lemma pick_spec rows np d : 0 < zmax_l (totals_of rows np d) ->
  let p := first_ge (totals_of rows np d) (zmax_l (totals_of rows np d)) 0 in
  (p < np)%nat /\ 0 < live_total rows p d /\ forall q, (q < np)%nat -> live_total rows q d <= live_total rows p d.
Proof.
  intro Hpos. destruct (first_ge_spec _ _ O Hpos eq_refl) as [k (-> & Hk & Hnth)].
  rewrite totals_length in Hk. rewrite nth_totals in Hnth by exact Hk. cbn [Nat.add]. rewrite Hnth.
  repeat split; [exact Hk|exact Hpos|]. intros q Hq. apply totals_le_max, Hq.
Qed.

(* the first listed expression that matches the example *)
Definition first_match (order : list nat) (r : example_row) : option nat :=
  List.find (fun p => nth p (er_match r) false) order.

Lemma first_match_app order p r :
  first_match (order ++ [p]) r =
  match first_match order r with
  | Some q => Some q
  | None => if nth p (er_match r) false then Some p else None
  end.
Proof.
  unfold first_match. induction order as [|q order IH]; cbn [app List.find].
  - destruct (nth p (er_match r) false); reflexivity.
  - destruct (nth q (er_match r) false); [reflexivity|exact IH].
Qed.

Lemma first_match_In order r q : first_match order r = Some q -> In q order.
Proof. unfold first_match. intro H. apply List.find_some in H. tauto. Qed.

(* The state of the loop is a function of the expressions listed so far: an example is live
   exactly when none of them matches it. *)
Definition unmatched (order : list nat) (r : example_row) : bool :=
  match first_match order r with None => true | Some _ => false end.

Definition alive (order : list nat) (full : list example_row) : list (bool * example_row) :=
  map (fun r => (unmatched order r, r)) full.

Lemma unmatched_app order p r : unmatched (order ++ [p]) r = unmatched order r && negb (nth p (er_match r) false).
Proof.
  unfold unmatched. rewrite first_match_app. destruct (first_match order r); [reflexivity|].
  destruct (nth p (er_match r) false); reflexivity.
Qed.

Lemma unmatched_listed order r p : unmatched order r = true -> In p order -> nth p (er_match r) false = false.
Proof.
  unfold unmatched, first_match. intros H Hp. destruct (List.find _ order) eqn:E; [discriminate|].
  apply (find_none _ _ E p Hp).
Qed.

Lemma kill_alive p order full : kill p (alive order full) = alive (order ++ [p]) full.
Proof.
  unfold kill, alive. rewrite map_map. apply map_ext. intro r. cbn [fst snd]. rewrite unmatched_app.
  destruct (unmatched order r), (nth p (er_match r) false); reflexivity.
Qed.

Lemma live_total_alive order full p d :
  live_total (alive order full) p d =
  fold_right Z.add 0 (map (fun r => if unmatched order r && nth p (er_match r) false then weight d r else 0) full).
Proof. unfold live_total, alive. rewrite map_map. reflexivity. Qed.

(* what the live examples weigh; selecting p takes away exactly its current total *)
Definition live_weight (d : bool) (order : list nat) (full : list example_row) : Z :=
  fold_right Z.add 0 (map (fun r => if unmatched order r then weight d r else 0) full).

Lemma live_weight_app d order p full :
  live_weight d (order ++ [p]) full + live_total (alive order full) p d = live_weight d order full.
Proof.
  rewrite live_total_alive. unfold live_weight. induction full as [|r full IH]; [reflexivity|].
  cbn [map fold_right]. rewrite unmatched_app. destruct (unmatched order r), (nth p (er_match r) false); cbn [andb negb]; lia.
Qed.

(* the column of a listed expression is zero: the loop cannot pick it again *)
Lemma listed_total_zero order full p d : In p order -> live_total (alive order full) p d = 0.
Proof.
  intro Hp. rewrite live_total_alive. apply sum_zero. intros r _.
  destruct (unmatched order r) eqn:E; [|reflexivity]. rewrite (unmatched_listed order r p E Hp). reflexivity.
Qed.

Lemma live_total_shrinks order full p q d : (forall r, In r full -> 0 <= er_freq r) ->
  live_total (alive (order ++ [p]) full) q d <= live_total (alive order full) q d.
Proof.
  intro Hnn. rewrite !live_total_alive. apply sum_le. intros r Hr. rewrite unmatched_app.
  assert (0 <= weight d r) by (destruct d; [cbn; lia|apply Hnn, Hr]).
  destruct (unmatched order r), (nth p (er_match r) false), (nth q (er_match r) false); cbn [andb negb]; lia.
Qed.

Definition credit (d : bool) (order : list nat) (rows : list example_row) (p : nat) : Z :=
  fold_right Z.add 0 (map (fun r => match first_match order r with
                                    | Some q => if Nat.eqb q p then weight d r else 0
                                    | None => 0 end) rows).

Lemma live_total_credit order full p d : ~ In p order ->
  live_total (alive order full) p d = credit d (order ++ [p]) full p.
Proof.
  intro Hp. rewrite live_total_alive. unfold credit. apply f_equal, map_ext. intro r.
  unfold unmatched. rewrite first_match_app. destruct (first_match order r) as [q|] eqn:E.
  - destruct (Nat.eqb_spec q p) as [->|]; [|reflexivity]. destruct Hp. exact (first_match_In _ _ _ E).
  - destruct (nth p (er_match r) false); [rewrite Nat.eqb_refl|]; reflexivity.
Qed.

Lemma credit_app_other d order p rows q : q <> p -> credit d (order ++ [p]) rows q = credit d order rows q.
Proof.
  intro Hne. unfold credit. apply f_equal, map_ext. intro r.
  rewrite first_match_app. destruct (first_match order r) as [x|]; [reflexivity|].
  destruct (nth p (er_match r) false); [|reflexivity].
  destruct (Nat.eqb_spec p q); [congruence|reflexivity].
Qed.

Definition matched_by_some (np : nat) (r : example_row) : bool := existsb (fun p => nth p (er_match r) false) (seq 0 np).

Definition key (sd : bool) (c : cov) : Z := if sd then c_incr_uniq c else c_incr c.

Section Greedy.
Variables (np : nat) (sd : bool) (full : list example_row).

Definition listed (done : list cov) : list (bool * example_row) := alive (map c_rex done) full.

(* what one round appends for the expression p it picks *)
Definition picked_cov (done : list cov) (p : nat) : cov :=
  {| c_rex := p; c_n := nth p (coverage full np false) 0; c_n_uniq := nth p (coverage full np true) 0;
     c_incr := live_total (listed done) p false; c_incr_uniq := live_total (listed done) p true |}.

Definition picked (done : list cov) (p : nat) : Prop :=
  (p < np)%nat /\ ~ In p (map c_rex done) /\
  forall q, (q < np)%nat -> live_total (listed done) q sd <= live_total (listed done) p sd.

(* the listed expressions are distinct and exist *)
Definition distinct_below (done : list cov) : Prop :=
  NoDup (map c_rex done) /\ forall q, In q (map c_rex done) -> (q < np)%nat.

(* no expression matches an example that is still live *)
Definition exhausted (done : list cov) : Prop := forall p, (p < np)%nat -> live_total (listed done) p sd <= 0.

Lemma listed_picked_cov done p : listed (done ++ [picked_cov done p]) = kill p (listed done).
Proof. unfold listed. rewrite map_app. symmetry. apply kill_alive. Qed.

Lemma key_picked_cov done p : key sd (picked_cov done p) = live_total (listed done) p sd.
Proof. destruct sd; reflexivity. Qed.

Lemma first_ge_picked done : 0 < zmax_l (totals_of (listed done) np sd) ->
  picked done (first_ge (totals_of (listed done) np sd) (zmax_l (totals_of (listed done) np sd)) 0).
Proof.
  intro Hpos. destruct (pick_spec (listed done) np sd Hpos) as (Hp & Hlive & Hmax). repeat split; [exact Hp| |exact Hmax].
  intro Hin. rewrite (listed_total_zero _ full _ sd Hin : live_total (listed done) _ sd = 0) in Hlive. discriminate.
Qed.

Lemma distinct_below_picked_cov done p : distinct_below done -> picked done p -> distinct_below (done ++ [picked_cov done p]).
Proof.
  intros [Hnd Hlt] (Hp & Hnew & _). unfold distinct_below. rewrite map_app. split; [apply NoDup_snoc; assumption|].
  intros q Hq. apply in_app_or in Hq as [Hq|[<-|[]]]; [apply Hlt, Hq|exact Hp].
Qed.

(* once all np expressions are listed, each has a zero column *)
Lemma all_listed_exhausted done : distinct_below done -> (np <= length done)%nat -> exhausted done.
Proof.
  intros [Hnd Hlt] Hlen p Hp. apply Z.eq_le_incl, listed_total_zero.
  apply (NoDup_length_incl (l' := seq 0 np) Hnd).
  - rewrite seq_length, map_length. exact Hlen.
  - intros x Hx. apply in_seq. split; [apply Nat.le_0_l|exact (Hlt x Hx)].
  - apply in_seq. split; [apply Nat.le_0_l|exact Hp].
Qed.

(* Every property of the result is proved through this rule: it holds at the start and each round keeps it. *)
Lemma greedy_invariant (I : list cov -> Prop) :
  (forall done p, I done -> picked done p -> I (done ++ [picked_cov done p])) ->
  forall fuel done, (np <= fuel + length done)%nat -> distinct_below done -> I done ->
  forall done' rows', greedy fuel np sd full (listed done) done = (done', rows') ->
  rows' = listed done' /\ distinct_below done' /\ I done' /\ exhausted done'.
Proof.
  intros Hstep fuel. induction fuel as [|f IH]; intros done Hf Hd HI done' rows'; cbn [greedy];
    assert (Hexit : exhausted done -> (done, listed done) = (done', rows') ->
                    rows' = listed done' /\ distinct_below done' /\ I done' /\ exhausted done')
      by (intros He [= <- <-]; exact (conj eq_refl (conj Hd (conj HI He)))).
  - apply Hexit, all_listed_exhausted; assumption.
  - destruct (Nat.leb_spec np (length done)) as [Hle|Hlt]; [apply Hexit, all_listed_exhausted; assumption|].
    destruct (Z.ltb_spec 0 (zmax_l (totals_of (listed done) np sd))) as [Hpos|Hnon].
    + pose proof (first_ge_picked done Hpos) as Hpick. set (p := first_ge _ _ 0) in *.
      destruct (mem_natb p (map c_rex done)) eqn:Em; [apply mem_natb_In in Em; destruct Hpick as (_ & Hnew & _); contradiction|].
      rewrite <- listed_picked_cov.
      apply IH; [rewrite app_length; cbn [length]; lia|apply distinct_below_picked_cov; assumption|apply Hstep; assumption].
    + apply Hexit. intros q Hq. pose proof (totals_le_max (listed done) np sd q Hq). lia.
Qed.

Lemma incremental_invariant (I : list cov -> Prop) :
  (forall done p, I done -> picked done p -> I (done ++ [picked_cov done p])) -> I [] ->
  let res := incremental full np sd in distinct_below res /\ I res /\ exhausted res.
Proof.
  intros Hstep H0. refine (proj2 (greedy_invariant I Hstep (S np) [] _ _ H0 _ _ (surjective_pairing _))).
  - cbn [length]. lia.
  - split; [constructor|intros q []].
Qed.

(* when the loop stops, every example that some expression matches has been zeroed:
   were it live and matched by p, the total of p would be positive *)
Lemma exhausted_unmatched done r :
  (forall r, In r full -> 0 < er_freq r) -> exhausted done ->
  In r full -> matched_by_some np r = true -> unmatched (map c_rex done) r = false.
Proof.
  intros Hpos Hex Hr Hm. apply existsb_exists in Hm as [p [Hp Hm]]. apply in_seq in Hp.
  destruct (unmatched (map c_rex done) r) eqn:E; [exfalso|reflexivity].
  specialize (Hex p ltac:(lia)). unfold listed in Hex. rewrite live_total_alive in Hex.
  assert (Hw : forall y, In y full -> 0 < weight sd y) by (intros y Hy; destruct sd; [reflexivity|apply Hpos, Hy]).
  apply sum_nonpos_zero with (x := r) in Hex; [|intros y Hy; specialize (Hw y Hy); destruct (_ && _); lia|exact Hr].
  rewrite E, Hm in Hex. specialize (Hw r Hr). cbn [andb] in Hex. lia.
Qed.

End Greedy.

Definition nothing_left (rows : list (bool * example_row)) : Prop :=
  forall lr, In lr rows -> fst lr = true -> forall p, nth p (er_match (snd lr)) false = false.

Fixpoint nonincreasing (l : list Z) : Prop :=
  match l with
  | [] => True
  | x :: r => (forall y, In y r -> y <= x) /\ nonincreasing r
  end.

Lemma nonincreasing_app l x : nonincreasing l -> (forall y, In y l -> x <= y) -> nonincreasing (l ++ [x]).
Proof.
  induction l as [|a l IH]; simpl; intros Hn Hx; [split; [intros y []|exact I]|].
  destruct Hn as [Ha Hn]. split.
  - intros y Hy. apply in_app_or in Hy as [Hy|[<-|[]]]; [apply Ha; exact Hy|apply Hx; left; reflexivity].
  - apply IH; [exact Hn|]. intros y Hy. apply Hx. right; exact Hy.
Qed.

Theorem incr_nonincreasing_proof rows np sd :
  (forall r, In r rows -> 0 <= er_freq r) ->
  nonincreasing (map (key sd) (incremental rows np sd)).
Proof.
  intro Hnn.
  apply (incremental_invariant np sd rows (fun done => nonincreasing (map (key sd) done) /\
           forall c, In c done -> forall q, (q < np)%nat -> live_total (listed rows done) q sd <= key sd c));
    [|split; [exact I|intros c []]].
  intros done p [Hs Hb] (Hp & _ & Hmax). split.
  - rewrite map_app. apply nonincreasing_app; [exact Hs|].
    intros y Hy. apply in_map_iff in Hy as [c [<- Hc]]. rewrite key_picked_cov. apply Hb; assumption.
  - intros c Hc q Hq. unfold listed. rewrite map_app.
    etransitivity; [apply live_total_shrinks, Hnn|].
    apply in_app_or in Hc as [Hc|[<-|[]]]; [apply Hb; assumption|rewrite key_picked_cov; apply Hmax, Hq].
Qed.

(* every listed figure is the weight of the examples whose first matching listed expression it is *)
Theorem incr_credit_proof rows np sd :
  let res := incremental rows np sd in
  forall c, In c res -> c_incr c = credit false (map c_rex res) rows (c_rex c) /\
                        c_incr_uniq c = credit true (map c_rex res) rows (c_rex c).
Proof.
  apply (incremental_invariant np sd rows (fun done => forall c, In c done ->
           c_incr c = credit false (map c_rex done) rows (c_rex c) /\
           c_incr_uniq c = credit true (map c_rex done) rows (c_rex c))); [|intros c []].
  intros done p Hc (_ & Hnew & _) c Hin. rewrite map_app. cbn [map].
  apply in_app_or in Hin as [Hin|[<-|[]]].
  - assert (c_rex c <> p) by (intro E; apply Hnew; rewrite <- E; apply in_map, Hin).
    rewrite !credit_app_other by assumption. apply Hc, Hin.
  - split; apply live_total_credit, Hnew.
Qed.

(* The figures of a whole run: the incremental counts sum to the total number of examples
   (with or without repeats) when every example is matched by some expression. *)
Theorem incr_sum_total_proof rows np sd d :
  (forall r, In r rows -> 0 < er_freq r) ->
  (forall r, In r rows -> matched_by_some np r = true) ->
  sum_incr d (incremental rows np sd) = n_examples rows d.
Proof.
  intros Hpos Hall.
  (* accounting: what has been credited plus what is still live is constant *)
  destruct (incremental_invariant np sd rows (fun done => sum_incr d done + live_weight d (map c_rex done) rows = n_examples rows d))
    as (_ & Hacc & Hex).
  - intros done p Hacc _. rewrite map_app, sum_incr_app.
    pose proof (live_weight_app d (map c_rex done) p rows : _ + live_total (listed rows done) p d = _). unfold sum_incr at 2.
    destruct d; cbn [map fold_right picked_cov c_rex c_incr c_incr_uniq]; lia.
  - symmetry. apply n_examples_weight.
  - rewrite <- Hacc. unfold live_weight. rewrite sum_zero; [lia|].
    intros r Hr. rewrite (exhausted_unmatched np sd rows _ r Hpos Hex Hr (Hall r Hr)). reflexivity.
Qed.
