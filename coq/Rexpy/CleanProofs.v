(* Extractor.clean computes a counter: the stored strings are the distinct cleaned forms of the kept items, and the
   stored frequency of each is the total of its items' counts.  Consequently the stored (string, frequency) pairs of
   two inputs that are permutations of each other - a list in any order, or the items of a frequency dictionary
   in any order - are permutations of each other, and so are those of a list and its frequency dictionary. *)
From Coq Require Import ZArith List Bool Lia Permutation.
From Tdda Require Import Base.ListFacts Base.Sexp Base.Str Rexpy.Chars Rexpy.Pipeline Rexpy.PipelineProofs.
Import ListNotations.
Open Scope Z_scope.

Definition headed (ct : chartab) (s : str) : Prop := match s with [] => True | c :: _ => ct_space ct c = false end.

Lemma lstrip_headed ct s : headed ct (lstrip_ct ct s).
Proof. induction s as [|c s IH]; cbn [lstrip_ct]; [exact I|]. destruct (ct_space ct c) eqn:E; [exact IH|exact E]. Qed.

Lemma lstrip_of_headed ct s : headed ct s -> lstrip_ct ct s = s.
Proof. destruct s as [|c s]; [reflexivity|]. cbn [headed lstrip_ct]. intros ->. reflexivity. Qed.

Lemma lstrip_suffix ct s : exists p, s = p ++ lstrip_ct ct s.
Proof.
  induction s as [|c s [p IH]]; [exists []; reflexivity|]. cbn [lstrip_ct].
  destruct (ct_space ct c); [exists (c :: p); cbn [app]; f_equal; exact IH|exists []; reflexivity].
Qed.

Lemma headed_rev_lstrip_rev ct s : headed ct s -> headed ct (rev (lstrip_ct ct (rev s))).
Proof.
  destruct (lstrip_suffix ct (rev s)) as [p Hp]. apply (f_equal (@rev Z)) in Hp.
  rewrite rev_involutive, rev_app_distr in Hp. rewrite Hp at 1.
  destruct (rev (lstrip_ct ct (rev s))); [intros _; exact I|exact (fun H => H)].
Qed.

Lemma strip_idem ct s : strip_ct ct (strip_ct ct s) = strip_ct ct s.
Proof.
  unfold strip_ct. set (a := lstrip_ct ct s). set (b := rev (lstrip_ct ct (rev a))).
  assert (Hb : headed ct b) by (apply headed_rev_lstrip_rev; apply lstrip_headed).
  rewrite (lstrip_of_headed ct b Hb). subst b. rewrite rev_involutive.
  rewrite (lstrip_of_headed ct _ (lstrip_headed ct (rev a))). reflexivity.
Qed.

Definition clean_form (ct : chartab) (o : ropts) (s : str) : str := if o_strip o then strip_ct ct s else s.

Lemma clean_form_idem ct o s : clean_form ct o (clean_form ct o s) = clean_form ct o s.
Proof. unfold clean_form. destruct (o_strip o); [apply strip_idem|reflexivity]. Qed.

Fixpoint get (t : str) (ss : list str) (fs : list Z) : Z :=
  match ss, fs with
  | u :: ss', f :: fs' => if str_eqb t u then f else get t ss' fs'
  | _, _ => 0
  end.

Lemma counter_add_spec t n ss : forall fs, length ss = length fs ->
  length (fst (counter_add t n ss fs)) = length (snd (counter_add t n ss fs)) /\
  fst (counter_add t n ss fs) = (if mem_str t ss then ss else ss ++ [t]) /\
  forall u, get u (fst (counter_add t n ss fs)) (snd (counter_add t n ss fs)) = get u ss fs + (if str_eqb u t then n else 0).
Proof.
  induction ss as [|v ss IH]; intros [|f fs] Hl; try discriminate; cbn [counter_add mem_str].
  - repeat split.
  - destruct (str_eqb t v) eqn:E; cbn [orb].
    + split; [exact Hl|]. split; [reflexivity|]. intro u. cbn [fst snd get].
      apply str_eqb_eq in E. subst v. destruct (str_eqb u t); [reflexivity|symmetry; apply Z.add_0_r].
    + destruct (IH fs (eq_add_S _ _ Hl)) as (IHl & IHk & IHg).
      destruct (counter_add t n ss fs) as [ss' fs']. cbn [fst snd] in *.
      split; [exact (f_equal S IHl)|]. split; [rewrite IHk; destruct (mem_str t ss); reflexivity|].
      intro u. cbn [get]. destruct (str_eqb u v) eqn:E2; [|apply IHg].
      apply str_eqb_eq in E2. subst v. rewrite str_eqb_sym, E. symmetry. apply Z.add_0_r.
Qed.

Lemma in_combine_get ss : forall fs t f, length ss = length fs -> NoDup ss ->
  (In (t, f) (combine ss fs) <-> In t ss /\ f = get t ss fs).
Proof.
  induction ss as [|u ss IH]; intros [|g fs] t f Hl Hnd; try discriminate; cbn [combine get In].
  - tauto.
  - inversion Hnd as [|? ? Hnu Hnd']; subst. specialize (IH fs t f ltac:(cbn in Hl; lia) Hnd').
    destruct (str_eqb t u) eqn:E.
    + apply str_eqb_eq in E. subst u. split.
      * intros [H|H]; [injection H as <-; split; [left; reflexivity|reflexivity]|].
        apply in_combine_l in H. contradiction.
      * intros [_ ->]. left. reflexivity.
    + assert (t <> u) by (intro; subst; rewrite str_eqb_refl in E; discriminate). split.
      * intros [H0|H0]; [injection H0 as -> _; congruence|]. apply IH in H0 as [H1 H2]. split; [right; exact H1|exact H2].
      * intros [[H0|H0] H1]; [congruence|]. right. apply IH. split; assumption.
Qed.

(* what clean does with one item: None = discarded, Some (t, n, changed) = count n more of the cleaned form t *)
Definition norm (ct : chartab) (o : ropts) (it : option str * Z) : option (str * Z * bool) :=
  match fst it with
  | None => None
  | Some s => if Z.eqb (snd it) 0 then None else
              let t := clean_form ct o s in
              if o_remove_empties o && is_nil t then None
              else Some (t, snd it, negb (Nat.eqb (length t) (length s)))
  end.

Lemma norm_spec ct o s n :
  norm ct o (Some s, n) =
  if kept ct o (Some s, n) then Some (clean_form ct o s, n, negb (Nat.eqb (length (clean_form ct o s)) (length s))) else None.
Proof.
  unfold norm, kept, clean_form. cbn [fst snd]. destruct (Z.eqb n 0); [reflexivity|].
  destruct (o_remove_empties o && _); reflexivity.
Qed.

Lemma kept_iff ct o s n :
  kept ct o (Some s, n) = true <-> n <> 0 /\ o_remove_empties o && is_nil (clean_form ct o s) = false.
Proof. unfold kept, clean_form. cbn [fst snd]. rewrite andb_true_iff, !negb_true_iff, Z.eqb_neq. reflexivity. Qed.

Lemma norm_some ct o it t n c : norm ct o it = Some (t, n, c) ->
  exists s, it = (Some s, n) /\ kept ct o (Some s, n) = true /\ t = clean_form ct o s.
Proof.
  destruct it as [[s|] m]; [|discriminate]. rewrite norm_spec. destruct (kept ct o (Some s, m)) eqn:Ek; [|discriminate].
  intro H. injection H as <- <- _. exists s. split; [reflexivity|]. split; [exact Ek|reflexivity].
Qed.

Definition nstep (st : list str * list Z * bool) (x : str * Z * bool) : list str * list Z * bool :=
  let r := counter_add (fst (fst x)) (snd (fst x)) (fst (fst st)) (snd (fst st)) in (fst r, snd r, snd st || snd x).

Lemma clean_fold_norm ct o items :
  clean ct o items =
  let '(strings, freqs, stripped) := fold_left nstep (omap (norm ct o) items) ([], [], false) in
  ({| ex_strings := strings; ex_freqs := freqs |}, stripped).
Proof.
  unfold clean. rewrite (fold_left_omap _ nstep (norm ct o)); [reflexivity|].
  intros [[ss fs] b] it. unfold norm, clean_form. destruct (fst it) as [s|]; [|reflexivity].
  destruct (Z.eqb (snd it) 0); [reflexivity|]. unfold is_nil.
  destruct (o_remove_empties o && _); [reflexivity|]. unfold nstep. cbn [fst snd].
  destruct (counter_add _ _ ss fs); reflexivity.
Qed.

Definition total (t : str) (L : list (str * Z * bool)) : Z :=
  fold_right Z.add 0 (map (fun x => snd (fst x)) (filter (fun x => str_eqb t (fst (fst x))) L)).

Lemma total_app t L1 L2 : total t (L1 ++ L2) = total t L1 + total t L2.
Proof.
  unfold total. rewrite filter_app, map_app. induction (map _ (filter _ L1)) as [|a l IH]; cbn [app fold_right]; lia.
Qed.

(* the state of clean's fold is determined by the list L of normalised items it has consumed *)
Definition counter_inv (L : list (str * Z * bool)) (st : list str * list Z * bool) : Prop :=
  length (fst (fst st)) = length (snd (fst st)) /\ NoDup (fst (fst st)) /\
  (forall t, In t (fst (fst st)) <-> In t (map (fun x => fst (fst x)) L)) /\
  (forall t, get t (fst (fst st)) (snd (fst st)) = total t L) /\
  snd st = existsb snd L.

Lemma nstep_inv L st x : counter_inv L st -> counter_inv (L ++ [x]) (nstep st x).
Proof.
  destruct st as [[ss fs] b]. destruct x as [[t n] c]. unfold counter_inv, nstep. cbn [fst snd].
  intros (Hl & Hnd & Hk & Hg & Hb). destruct (counter_add_spec t n ss fs Hl) as (Ln & K & G).
  split; [exact Ln|]. split; [|split; [|split]].
  - rewrite K. destruct (mem_str t ss) eqn:E; [exact Hnd|]. apply NoDup_snoc; [exact Hnd|].
    intro Hc. apply mem_str_In in Hc. congruence.
  - intro u. rewrite K, map_app, in_app_iff, <- Hk. cbn [map In fst].
    destruct (mem_str t ss) eqn:E; [|apply in_app_iff].
    split; [intro H; left; exact H|intros [H|[<-|[]]]; [exact H|apply mem_str_In, E]].
  - intro u. rewrite G, Hg, total_app. f_equal. unfold total. cbn [filter fst snd].
    destruct (str_eqb u t); [symmetry; apply Z.add_0_r|reflexivity].
  - rewrite existsb_app. cbn [existsb snd]. rewrite Hb, orb_false_r. reflexivity.
Qed.

Lemma counter_inv_nil : counter_inv [] ([], [], false).
Proof. unfold counter_inv. cbn. repeat split; try constructor; intros []. Qed.

Theorem clean_counter ct o items :
  counter_inv (omap (norm ct o) items)
              (ex_strings (fst (clean ct o items)), ex_freqs (fst (clean ct o items)), snd (clean ct o items)).
Proof.
  rewrite clean_fold_norm.
  pose proof (fold_left_snoc_inv counter_inv nstep nstep_inv (omap (norm ct o) items) [] _ counter_inv_nil) as H.
  destruct (fold_left nstep _ _) as [[ss fs] b]. exact H.
Qed.

Lemma clean_lengths ct o items : length (ex_strings (fst (clean ct o items))) = length (ex_freqs (fst (clean ct o items))).
Proof. exact (proj1 (clean_counter ct o items)). Qed.

Lemma clean_NoDup ct o items : NoDup (ex_strings (fst (clean ct o items))).
Proof. exact (proj1 (proj2 (clean_counter ct o items))). Qed.

Lemma clean_keys ct o items t :
  In t (ex_strings (fst (clean ct o items))) <-> In t (map (fun x => fst (fst x)) (omap (norm ct o) items)).
Proof. exact (proj1 (proj2 (proj2 (clean_counter ct o items))) t). Qed.

Lemma clean_get ct o items t :
  get t (ex_strings (fst (clean ct o items))) (ex_freqs (fst (clean ct o items))) = total t (omap (norm ct o) items).
Proof. exact (proj1 (proj2 (proj2 (proj2 (clean_counter ct o items)))) t). Qed.

Lemma clean_pairs ct o items t f :
  In (t, f) (combine (ex_strings (fst (clean ct o items))) (ex_freqs (fst (clean ct o items)))) <->
  In t (map (fun x => fst (fst x)) (omap (norm ct o) items)) /\ f = total t (omap (norm ct o) items).
Proof.
  rewrite (in_combine_get _ _ t f (clean_lengths ct o items) (clean_NoDup ct o items)), clean_keys, clean_get. reflexivity.
Qed.

Lemma clean_flag ct o items : snd (clean ct o items) = existsb snd (omap (norm ct o) items).
Proof. exact (proj2 (proj2 (proj2 (proj2 (clean_counter ct o items))))). Qed.

Lemma clean_strings_iff ct o items t :
  In t (ex_strings (fst (clean ct o items))) <->
  exists s n, In (Some s, n) items /\ kept ct o (Some s, n) = true /\ t = clean_form ct o s.
Proof.
  split.
  - intro H. apply clean_keys, in_map_iff in H as [[[t' n] c] [<- Hx]]. apply In_omap in Hx as [it [Hin Hn]].
    apply norm_some in Hn as (s & -> & Ek & E). exists s, n. split; [exact Hin|]. split; [exact Ek|exact E].
  - intros (s & n & Hin & Ek & ->). apply clean_keys, in_map_iff. eexists. split; [|apply In_omap; exists (Some s, n); split; [exact Hin|]].
    2: rewrite norm_spec, Ek; reflexivity. reflexivity.
Qed.

Lemma clean_strings_sub ct o items t : In t (ex_strings (fst (clean ct o items))) ->
  exists s n, In (Some s, n) items /\ t = clean_form ct o s.
Proof. intro H. apply clean_strings_iff in H as (s & n & Hin & _ & E). exists s, n. split; assumption. Qed.

Lemma clean_empty_none_kept ct o items :
  ex_strings (fst (clean ct o items)) = [] -> forall it, In it items -> kept ct o it = false.
Proof.
  intros H [[s|] n] Hin; [|reflexivity]. destruct (kept ct o (Some s, n)) eqn:Ek; [|reflexivity].
  assert (Ht : In (clean_form ct o s) (ex_strings (fst (clean ct o items)))).
  { apply clean_strings_iff. exists s, n. split; [exact Hin|]. split; [exact Ek|reflexivity]. }
  rewrite H in Ht. destruct Ht.
Qed.

(* the stored examples are in final form: cleaning them again changes nothing *)
Definition stored_final (ct : chartab) (o : ropts) (all : examples) : Prop :=
  forall s, In s (ex_strings all) -> clean_form ct o s = s.

Lemma clean_stored_final ct o items : stored_final ct o (fst (clean ct o items)).
Proof. intros t Ht. destruct (clean_strings_sub ct o items t Ht) as (s & n & _ & ->). apply clean_form_idem. Qed.

Lemma failex_sub ct o all fails : stored_final ct o all ->
  incl fails (combine (ex_strings all) (ex_freqs all)) ->
  incl (ex_strings (fst (clean ct o (map (fun sf : str * Z => (Some (fst sf), snd sf)) fails)))) (ex_strings all).
Proof.
  intros Hf Hsub t Ht. destruct (clean_strings_sub _ _ _ _ Ht) as (s & n & Hin & ->).
  apply in_map_iff in Hin as [[s' n'] [E Hin]]. cbn [fst snd] in E. injection E as -> ->.
  apply Hsub, in_combine_l in Hin. rewrite (Hf s Hin). exact Hin.
Qed.

Lemma total_pos t L : (forall x, In x L -> 0 < snd (fst x)) ->
  0 <= total t L /\ (In t (map (fun x => fst (fst x)) L) -> 0 < total t L).
Proof.
  unfold total. induction L as [|x L IH]; intro Hpos; cbn [filter map In]; [split; [reflexivity|intros []]|].
  destruct (IH (fun y Hy => Hpos y (or_intror Hy))) as [IH0 IH1]. pose proof (Hpos x (or_introl eq_refl)) as Hx.
  destruct (str_eqb t (fst (fst x))) eqn:E; cbn [map fold_right].
  - split; [lia|intros _; lia].
  - split; [exact IH0|]. intros [Hin|Hin]; [|exact (IH1 Hin)]. subst t. rewrite str_eqb_refl in E. discriminate.
Qed.

Theorem clean_wf ct o items : (forall it, In it items -> 0 <= snd it) -> wf_all ct o (fst (clean ct o items)).
Proof.
  intro Hnn. split; [apply clean_lengths|]. intros [t f] Hin. cbn [fst snd].
  apply clean_pairs in Hin as [Hk ->].
  assert (Hpos : forall x, In x (omap (norm ct o) items) -> 0 < snd (fst x)).
  { intros [[t' n] c] Hx. apply In_omap in Hx as [it [Hin Hn]]. apply norm_some in Hn as (s & -> & Ek & _).
    apply kept_iff in Ek as [Ek _]. specialize (Hnn _ Hin). cbn [fst snd] in *. lia. }
  pose proof (proj2 (total_pos t _ Hpos) Hk) as Hf.
  apply in_map_iff in Hk as [[[t' n] c] [<- Hx]]. cbn [fst] in *. apply In_omap in Hx as [it [_ Hn]]. apply norm_some in Hn as (s & _ & Ek & ->).
  apply kept_iff in Ek as [_ Ek]. apply kept_iff. rewrite clean_form_idem. split; [lia|exact Ek].
Qed.

Lemma total_perm_eq t L L' : Permutation L L' -> total t L = total t L'.
Proof. intro H. apply sum_perm, Permutation_map, filter_perm. exact H. Qed.

Definition pairs (ex : examples) : list (str * Z) := combine (ex_strings ex) (ex_freqs ex).

(* two inputs with the same normalised items up to order (in particular: permutations of each other) store the same
   (string, frequency) pairs up to order, and agree on whether anything was stripped *)
Theorem clean_norm_perm ct o items items' :
  Permutation (omap (norm ct o) items) (omap (norm ct o) items') ->
  Permutation (pairs (fst (clean ct o items))) (pairs (fst (clean ct o items'))) /\
  Permutation (ex_strings (fst (clean ct o items))) (ex_strings (fst (clean ct o items'))) /\
  snd (clean ct o items) = snd (clean ct o items').
Proof.
  assert (Hincl : forall i i', Permutation (omap (norm ct o) i) (omap (norm ct o) i') ->
                  incl (pairs (fst (clean ct o i))) (pairs (fst (clean ct o i')))).
  { intros i i' Hp [t f] H. apply clean_pairs. apply clean_pairs in H as [H1 ->].
    split; [exact (Permutation_in _ (Permutation_map _ Hp) H1)|apply total_perm_eq, Hp]. }
  intro Hp.
  assert (Hpairs : Permutation (pairs (fst (clean ct o items))) (pairs (fst (clean ct o items')))).
  { assert (Hnd : forall i, NoDup (pairs (fst (clean ct o i)))).
    { intro i. apply (NoDup_map_inv fst). unfold pairs. rewrite map_fst_combine by apply clean_lengths. apply clean_NoDup. }
    apply NoDup_Permutation; [apply Hnd..|].
    intro x. split; apply Hincl; [exact Hp|apply Permutation_sym, Hp]. }
  split; [exact Hpairs|]. split.
  - rewrite <- (map_fst_combine _ _ (clean_lengths ct o items)), <- (map_fst_combine _ _ (clean_lengths ct o items')).
    apply Permutation_map. exact Hpairs.
  - rewrite !clean_flag. apply existsb_perm. exact Hp.
Qed.

Corollary clean_perm ct o items items' : Permutation items items' ->
  Permutation (pairs (fst (clean ct o items))) (pairs (fst (clean ct o items'))) /\
  Permutation (ex_strings (fst (clean ct o items))) (ex_strings (fst (clean ct o items'))) /\
  snd (clean ct o items) = snd (clean ct o items').
Proof. intro H. apply clean_norm_perm. apply omap_perm. exact H. Qed.

(* repeating an example k more times changes the stored strings not at all (only its frequency) *)
Theorem clean_repeat_strings ct o items it k :
  In it items ->
  forall t, In t (ex_strings (fst (clean ct o (items ++ repeat it k)))) <-> In t (ex_strings (fst (clean ct o items))).
Proof.
  intros Hin t. split; intro H.
  - apply clean_keys. apply clean_keys in H. rewrite omap_app, map_app in H. apply in_app_or in H as [H|H]; [exact H|].
    apply in_map_iff in H as [x [<- Hx]]. apply In_omap in Hx as [it' [Hr Hn]].
    apply repeat_spec in Hr. subst it'. apply in_map_iff. exists x. split; [reflexivity|]. apply In_omap. exists it. split; assumption.
  - apply clean_keys. rewrite omap_app, map_app. apply in_or_app. left. apply clean_keys, H.
Qed.

Lemma clean_items_of_strings ct o all : wf_all ct o all -> stored_final ct o all ->
  forall t, In t (ex_strings (fst (clean ct o (items_of all)))) <-> In t (ex_strings all).
Proof.
  intros [Hl Hk] Hf t. split; intro H.
  - apply clean_strings_iff in H as (s & n & Hin & _ & ->). apply in_map_iff in Hin as [[s' n'] [E Hin]]. injection E as -> ->.
    apply in_combine_l in Hin. rewrite (Hf s Hin). exact Hin.
  - destruct (in_combine_exists _ _ t Hl H) as [f Hin]. apply clean_strings_iff. exists t, f.
    split; [exact (in_map (fun sf : str * Z => (Some (fst sf), snd sf)) _ (t, f) Hin)|].
    split; [exact (Hk (t, f) Hin)|]. symmetry. exact (Hf t H).
Qed.

Lemma norm_count ct o s n : n <> 0 ->
  norm ct o (s, n) = match norm ct o (s, 1) with Some (t, _, c) => Some (t, n, c) | None => None end.
Proof.
  intro Hn. unfold norm. cbn [fst snd]. destruct s as [s|]; [|reflexivity].
  replace (Z.eqb n 0) with false by (symmetry; apply Z.eqb_neq; exact Hn). cbn [Z.eqb].
  destruct (o_remove_empties o && _); reflexivity.
Qed.

Lemma keys_flags_incl (L L' : list (str * Z * bool)) :
  (forall t c, (exists n, In (t, n, c) L) -> exists n, In (t, n, c) L') ->
  incl (map (fun x => fst (fst x)) L) (map (fun x => fst (fst x)) L') /\ (existsb snd L = true -> existsb snd L' = true).
Proof.
  intro H. split.
  - intros t Ht. apply in_map_iff in Ht as [[[t0 n] c] [<- Hin]]. destruct (H t0 c (ex_intro _ n Hin)) as [n' Hin'].
    apply in_map_iff. exists (t0, n', c). split; [reflexivity|exact Hin'].
  - intro E. apply existsb_exists in E as [[[t0 n] c] [Hin Hc]]. cbn [snd] in Hc. subst c.
    destruct (H t0 true (ex_intro _ n Hin)) as [n' Hin']. apply existsb_exists. exists (t0, n', true). split; [exact Hin'|reflexivity].
Qed.

Lemma clean_same_keys ct o items items' :
  (forall t c, (exists n, In (t, n, c) (omap (norm ct o) items)) <-> (exists n, In (t, n, c) (omap (norm ct o) items'))) ->
  Permutation (ex_strings (fst (clean ct o items))) (ex_strings (fst (clean ct o items'))) /\
  snd (clean ct o items) = snd (clean ct o items').
Proof.
  intro H. destruct (keys_flags_incl _ _ (fun t c => proj1 (H t c))) as [K1 F1].
  destruct (keys_flags_incl _ _ (fun t c => proj2 (H t c))) as [K2 F2]. split.
  - apply NoDup_Permutation; [apply clean_NoDup..|].
    intro t. split; intro Ht; apply clean_keys; [apply K1|apply K2]; apply clean_keys, Ht.
  - rewrite !clean_flag.
    apply eq_true_iff_eq. split; assumption.
Qed.
