(* Reading the model's results backwards: from `f ... = Ok x` to what the parts of f returned (bind_ok, bind_case,
   mapM_Forall2) and from an error to where it arose (errs_in); dedup_by keeps each element once (dedup_by_In,
   dedup_by_NoDup); with that, what one batch extraction, one check and one sampling step guarantee. *)
From Coq Require Import ZArith List Bool Lia Permutation.
From Tdda Require Import Base.ListFacts Base.Sexp Base.Sort Base.SortProofs Rexpy.Chars Rexpy.Pipeline.
Import ListNotations.
Open Scope Z_scope.

Lemma bind_ok {A B} (r : res A) (k : A -> res B) b : bind r k = Ok b -> exists a, r = Ok a /\ k a = Ok b.
Proof. destruct r as [a|e]; [|discriminate]. intro H. exists a. split; [reflexivity|exact H]. Qed.

Lemma bind_case {A B} (Q : res B -> Prop) (r : res A) (k : A -> res B) :
  (forall e, r = Err e -> Q (Err e)) -> (forall a, r = Ok a -> Q (k a)) -> Q (bind r k).
Proof. intros He Ha. destruct r as [a|e]; [apply Ha|apply He]; reflexivity. Qed.

Lemma list_case {T U} (Q : U -> Prop) (l : list T) (a : U) (b : T -> list T -> U) :
  (l = [] -> Q a) -> (forall x l', l = x :: l' -> Q (b x l')) -> Q (match l with [] => a | x :: l' => b x l' end).
Proof. intros Ha Hb. destruct l as [|x l']; [apply Ha|apply Hb]; reflexivity. Qed.

Lemma mapM_Forall2 {A B} (f : A -> res B) l ys : mapM f l = Ok ys -> Forall2 (fun x y => f x = Ok y) l ys.
Proof.
  revert ys; induction l as [|x l IH]; intros ys H; cbn [mapM] in H.
  - injection H as <-. constructor.
  - apply bind_ok in H as [y [Ex H]]. apply bind_ok in H as [ys' [El H]]. injection H as <-.
    constructor; [exact Ex|apply IH; exact El].
Qed.

Lemma mapM_length {A B} (f : A -> res B) l ys : mapM f l = Ok ys -> length ys = length l.
Proof. intro H. symmetry. eapply Forall2_length, mapM_Forall2, H. Qed.

Lemma mapM_In {A B} (f : A -> res B) l ys y : mapM f l = Ok ys -> In y ys -> exists x, In x l /\ f x = Ok y.
Proof.
  intro H. apply mapM_Forall2 in H. induction H as [|x y' l ys Hxy _ IH]; intro Hin; [destruct Hin|].
  destruct Hin as [<-|Hin]; [exists x; split; [left; reflexivity|exact Hxy]|].
  destruct (IH Hin) as [x' [Hx' Hf]]. exists x'. split; [right; exact Hx'|exact Hf].
Qed.

Lemma mapM_In_l {A B} (f : A -> res B) l ys : mapM f l = Ok ys ->
  forall x, In x l -> exists y, f x = Ok y /\ In y ys.
Proof.
  intro H. apply mapM_Forall2 in H. induction H as [|x y l ys Hxy _ IH]; intros x0 Hin; [destruct Hin|].
  destruct Hin as [<-|Hin]; [exists y; split; [exact Hxy|left; reflexivity]|].
  destruct (IH x0 Hin) as [y0 [Hy0 Hin0]]. exists y0. split; [exact Hy0|right; exact Hin0].
Qed.

Lemma Forall2_mapM {A B} (f : A -> res B) l ys : Forall2 (fun x y => f x = Ok y) l ys -> mapM f l = Ok ys.
Proof. induction 1 as [|x y l ys Hxy _ IH]; cbn [mapM]; [reflexivity|]. rewrite Hxy, IH. reflexivity. Qed.

Lemma mapM_Permutation {A B} (f : A -> res B) l l' : Permutation l l' -> forall ys, mapM f l = Ok ys ->
  exists ys', mapM f l' = Ok ys' /\ Permutation ys ys'.
Proof.
  intros Hp ys H. destruct (Permutation_Forall2 Hp (mapM_Forall2 _ _ _ H)) as [ys' [Hp' F]].
  exists ys'. split; [apply Forall2_mapM, F|exact Hp'].
Qed.

Lemma mapM_impl {A B} (f g : A -> res B) l : (forall x y, f x = Ok y -> g x = Ok y) ->
  forall ys, mapM f l = Ok ys -> mapM g l = Ok ys.
Proof.
  intros Hfg ys H. apply Forall2_mapM. eapply Forall2_impl; [exact Hfg|]. apply mapM_Forall2, H.
Qed.

Lemma mapM_map {A B C} (f : B -> res C) (g : A -> B) l : mapM (fun x => f (g x)) l = mapM f (map g l).
Proof. induction l as [|x l IH]; cbn [mapM map]; [reflexivity|]. rewrite IH. reflexivity. Qed.

Lemma mapM_combine {A B} (f : A -> res B) (d : B) l ys : mapM f l = Ok ys ->
  combine l ys = map (fun x => (x, match f x with Ok y => y | Err _ => d end)) l.
Proof.
  intro H. apply mapM_Forall2 in H. induction H as [|x y l ys Hxy _ IH]; [reflexivity|].
  cbn [combine map]. rewrite Hxy, IH. reflexivity.
Qed.

(* where errors come from: every error code a computation can end with satisfies P *)
Definition errs_in {A} (P : Z -> Prop) (r : res A) : Prop := forall e, r = Err e -> P e.

Lemma errs_in_ok {A} P (a : A) : errs_in P (Ok a).
Proof. intros e H. discriminate H. Qed.

Lemma errs_in_err {A} (P : Z -> Prop) e : P e -> errs_in P (@Err A e).
Proof. intros H e' E. injection E as <-. exact H. Qed.

Lemma errs_in_bind {A B} P (r : res A) (k : A -> res B) :
  errs_in P r -> (forall a, r = Ok a -> errs_in P (k a)) -> errs_in P (bind r k).
Proof. intros Hr Hk. destruct r as [a|e]; cbn [bind]; [apply Hk; reflexivity|apply errs_in_err, Hr; reflexivity]. Qed.

Lemma errs_in_mapM {A B} P (f : A -> res B) l : (forall x, In x l -> errs_in P (f x)) -> errs_in P (mapM f l).
Proof.
  induction l as [|x l IH]; intro H; cbn [mapM]; [apply errs_in_ok|].
  apply errs_in_bind; [apply H; left; reflexivity|intros y _].
  apply errs_in_bind; [apply IH; intros x' Hx'; apply H; right; exact Hx'|intros ys _; apply errs_in_ok].
Qed.

(* the error codes of the library oracles and of the category table: everything but the loop's own bound *)
Definition not_fuel (e : Z) : Prop := e <> E_FUEL.

Definition anchored (r : str) : Prop := exists body, r = [94] ++ body ++ [36].

Lemma vrle2re_anchored out full e stripped tagged fs r : vrle2re out full e stripped tagged fs = Ok r -> anchored r.
Proof.
  unfold vrle2re. intro H. apply bind_ok in H as [parts [_ H]].
  set (ws := if stripped then _ else _) in H. injection H as <-.
  exists (ws ++ List.concat parts ++ ws). rewrite <- !app_assoc. reflexivity.
Qed.

Lemma vrle2re_err out full e stripped tagged fs : errs_in not_fuel (vrle2re out full e stripped tagged fs).
Proof.
  unfold vrle2re. apply errs_in_bind; [|intros parts _; apply errs_in_ok].
  apply errs_in_mapM. intros f _. unfold fragment2re. apply errs_in_bind; [|intros r _; apply errs_in_ok].
  unfold atom_text. destruct (f_atom f) as [s|c|code|chars]; try apply errs_in_ok.
  destruct (cat_re out e code); [apply errs_in_ok|apply errs_in_err; discriminate].
Qed.

Lemma dedup_by_length_le {T} (eqb : T -> T -> bool) l : (length (dedup_by eqb l) <= length l)%nat.
Proof.
  induction l as [|x l IH]; simpl; [lia|].
  pose proof (filter_length_le (fun y => negb (eqb x y)) (dedup_by eqb l)). lia.
Qed.

Lemma dedup_by_In {T} (eqb : T -> T -> bool) (Heq : forall a b, eqb a b = true <-> a = b) l x :
  In x (dedup_by eqb l) <-> In x l.
Proof.
  induction l as [|y l IH]; [reflexivity|]. cbn [dedup_by]. split.
  - intros [<-|H]; [left; reflexivity|]. apply filter_In in H as [H _]. right. apply IH. exact H.
  - intros [<-|H]; [left; reflexivity|].
    destruct (eqb y x) eqn:E; [left; apply Heq; exact E|]. right. apply filter_In. split; [apply IH; exact H|rewrite E; reflexivity].
Qed.

Lemma dedup_by_NoDup {T} (eqb : T -> T -> bool) (Heq : forall a b, eqb a b = true <-> a = b) l : NoDup (dedup_by eqb l).
Proof.
  induction l as [|x l IH]; cbn [dedup_by]; [constructor|]. constructor.
  - intro Hin. apply filter_In in Hin as [_ Hn]. rewrite (proj2 (Heq x x) eq_refl) in Hn. discriminate.
  - apply NoDup_filter. exact IH.
Qed.

Lemma dedup_by_Permutation {T} (eqb : T -> T -> bool) (Heq : forall a b, eqb a b = true <-> a = b) l l' :
  (forall x, In x l <-> In x l') -> Permutation (dedup_by eqb l) (dedup_by eqb l').
Proof.
  intro H. apply NoDup_Permutation; try (apply dedup_by_NoDup; exact Heq).
  intro x. rewrite !(dedup_by_In eqb Heq). apply H.
Qed.

Lemma dedup_by_map_Permutation {A T} (eqb : T -> T -> bool) (Heq : forall a b, eqb a b = true <-> a = b) (f : A -> T) l l' :
  Permutation l l' -> Permutation (dedup_by eqb (map f l)) (dedup_by eqb (map f l')).
Proof.
  intro Hp. apply (dedup_by_Permutation eqb Heq). intro x. pose proof (Permutation_map f Hp) as Hm.
  split; [apply (Permutation_in x Hm)|apply (Permutation_in x (Permutation_sym Hm))].
Qed.

Lemma to_vrles_length rles : (length (to_vrles rles) <= length rles)%nat.
Proof.
  unfold to_vrles, sigs_of. rewrite isort_length, map_length.
  etransitivity; [apply dedup_by_length_le|]. rewrite map_length. reflexivity.
Qed.

Definition merge_refined (refined : list (list frag)) : list (list frag) :=
  match refined with [_] => refined | _ => isort len_leb refined end.

Lemma merge_refined_length refined : length (merge_refined refined) = length refined.
Proof. destruct refined as [|a [|b l]]; [reflexivity|reflexivity|apply isort_length]. Qed.

(* batch_extract in two steps: the refined patterns (no use of the tag option), then their rendering *)
Lemma batch_extract_iff ct o e stripped gt ex merged rex :
  batch_extract ct o e stripped gt ex = Ok (merged, rex) <->
  exists refined,
    mapM (refine_vrle ct o e stripped gt (ex_strings ex) (map (rle_coarse ct e) (ex_strings ex)))
         (to_vrles (dedup_by rle_eqb (map (rle_coarse ct e) (ex_strings ex)))) = Ok refined /\
    merged = merge_refined refined /\
    mapM (vrle2re false (o_full_escape o) e stripped (o_tag o)) merged = Ok rex.
Proof.
  unfold batch_extract, merge_refined. split.
  - intro H. apply bind_ok in H as [refined [Eref H]]. apply bind_ok in H as [rx [Erx H]].
    injection H as <- <-. exists refined. split; [exact Eref|]. split; [reflexivity|exact Erx].
  - intros (refined & -> & -> & Erx). cbn [bind]. rewrite Erx. reflexivity.
Qed.

Lemma batch_extract_shape ct o e stripped gt ex merged rex :
  batch_extract ct o e stripped gt ex = Ok (merged, rex) ->
  length rex = length merged /\ (length merged <= length (ex_strings ex))%nat /\ Forall anchored rex.
Proof.
  intro H. apply batch_extract_iff in H as (refined & Eref & -> & Erx).
  split; [apply (mapM_length _ _ _ Erx)|]. split.
  - rewrite merge_refined_length, (mapM_length _ _ _ Eref).
    etransitivity; [apply to_vrles_length|]. etransitivity; [apply dedup_by_length_le|]. rewrite map_length. reflexivity.
  - apply Forall_forall. intros r Hr. destruct (mapM_In _ _ _ _ Erx Hr) as [fs [_ Hfs]].
    eapply vrle2re_anchored. exact Hfs.
Qed.

Lemma batch_extract_err ct o e stripped gt ex : errs_in not_fuel (batch_extract ct o e stripped gt ex).
Proof.
  unfold batch_extract. apply errs_in_bind.
  - apply errs_in_mapM. intros vrle _. unfold refine_vrle.
    apply errs_in_bind; [apply vrle2re_err|intros regex _].
    apply errs_in_bind; [|intros groups _; apply errs_in_ok].
    apply errs_in_mapM. intros x _. destruct (lookup_groups gt regex x) as [gs|]; [|apply errs_in_err; discriminate].
    destruct (Nat.eqb _ _); [apply errs_in_ok|apply errs_in_err; discriminate].
  - intros refined _. apply errs_in_bind; [|intros rex _; apply errs_in_ok].
    apply errs_in_mapM. intros fs _. apply vrle2re_err.
Qed.

Definition with_tag (o : ropts) (t : bool) : ropts :=
  {| o_tag := t; o_extra := o_extra o; o_full_escape := o_full_escape o; o_remove_empties := o_remove_empties o;
     o_strip := o_strip o; o_vlf := o_vlf o; o_max_patterns := o_max_patterns o; o_min_strings := o_min_strings o;
     o_dialect_out := o_dialect_out o; z_do_all := z_do_all o; z_do_all_exceptions := z_do_all_exceptions o;
     z_max_sampled_attempts := z_max_sampled_attempts o; z_max_punc_in_group := z_max_punc_in_group o;
     z_max_strings_in_group := z_max_strings_in_group o |}.

(* tagging plays no part in choosing the fragments: only the final rendering differs *)
Lemma refine_vrle_tag ct o e stripped gt strings rles vrle t :
  refine_vrle ct (with_tag o t) e stripped gt strings rles vrle = refine_vrle ct o e stripped gt strings rles vrle.
Proof. reflexivity. Qed.

Lemma first_matching_some mt rexes s k : first_matching mt rexes s = Ok (Some k) ->
  exists r, In r rexes /\ lookup_match mt r s = Some true.
Proof.
  unfold first_matching. generalize O. induction rexes as [|r rs IH]; intros j H; [discriminate|].
  destruct (lookup_match mt r s) as [[|]|] eqn:E; [| |discriminate].
  - exists r. split; [left; reflexivity|exact E].
  - destruct (IH _ H) as [r' [Hin Hm]]. exists r'. split; [right; exact Hin|exact Hm].
Qed.

Lemma first_matching_err mt rexes s : errs_in not_fuel (first_matching mt rexes s).
Proof.
  unfold first_matching. generalize O. induction rexes as [|r rs IH]; intro j; [apply errs_in_ok|].
  destruct (lookup_match mt r s) as [[|]|]; [apply errs_in_ok|apply IH|apply errs_in_err; discriminate].
Qed.

Lemma find_non_matches_err mt rexes all : errs_in not_fuel (find_non_matches mt rexes all).
Proof.
  unfold find_non_matches. destruct rexes as [|r0 rs]; [apply errs_in_ok|].
  apply errs_in_bind; [|intros firsts _; apply errs_in_ok]. apply errs_in_mapM. intros sf _. apply first_matching_err.
Qed.

Lemma find_non_matches_failures_sub mt rexes all failures rf :
  find_non_matches mt rexes all = Ok (failures, rf) -> incl failures (combine (ex_strings all) (ex_freqs all)).
Proof.
  unfold find_non_matches. destruct rexes as [|r0 rs]; intro H.
  - injection H as <- _. apply incl_refl.
  - apply bind_ok in H as [firsts [_ H]]. injection H as <- _.
    intros p Hp. apply in_map_iff in Hp as [[p' o'] [<- Hp]]. apply filter_In in Hp as [Hp _].
    apply in_combine_l in Hp. exact Hp.
Qed.

Theorem find_non_matches_complete mt rexes all re_freqs :
  length (ex_strings all) = length (ex_freqs all) ->
  find_non_matches mt rexes all = Ok ([], re_freqs) ->
  forall s, In s (ex_strings all) -> exists r, In r rexes /\ lookup_match mt r s = Some true.
Proof.
  intros Hlen H s Hs. destruct (in_combine_exists _ _ s Hlen Hs) as [f Hin].
  unfold find_non_matches in H. destruct rexes as [|r0 rexes0].
  - injection H as Hc _. rewrite Hc in Hin. destruct Hin.
  - apply bind_ok in H as [firsts [Ef H]]. injection H as Hfail _.
    apply mapM_Forall2 in Ef.
    induction Ef as [|p o ps os Hpo _ IH]; [destruct Hin|]. cbn [combine filter snd] in Hfail.
    destruct o as [k|]; [|discriminate]. destruct Hin as [->|Hin]; [|apply IH; assumption].
    eapply first_matching_some. exact Hpo.
Qed.

Definition ne_samples (samples : list (list nat)) : Prop := Forall (fun idx : list nat => idx <> []) samples.

(* sampling never returns an empty selection when the generator's selections are non-empty
   (random.sample(z, k) with k >= 1) *)
Lemma take_sample_nonempty {T} samples (z : list T) picked rest :
  ne_samples samples -> take_sample samples z = Ok (picked, rest) -> picked <> [] /\ ne_samples rest.
Proof.
  intros HF H. unfold take_sample in H. destruct samples as [|idx samples]; [discriminate|].
  inversion HF as [|? ? Hidx HF']; subst. apply bind_ok in H as [p [Em H]]. injection H as <- <-.
  split; [|exact HF']. apply mapM_length in Em. destruct p; [destruct idx; [congruence|discriminate]|discriminate].
Qed.

Lemma take_sample_sub {T} samples (z : list T) picked rest : take_sample samples z = Ok (picked, rest) -> incl picked z.
Proof.
  unfold take_sample. destruct samples as [|idx samples]; [discriminate|]. intro H.
  apply bind_ok in H as [p [Em H]]. injection H as <- _.
  intros x Hx. destruct (mapM_In _ _ _ _ Em Hx) as [i [_ Hi]]. destruct (nth_error z i) eqn:En; [|discriminate].
  injection Hi as <-. eapply nth_error_In. exact En.
Qed.

Lemma take_sample_err {T} samples (z : list T) : errs_in not_fuel (take_sample samples z).
Proof.
  unfold take_sample. destruct samples as [|idx rest]; [apply errs_in_err; discriminate|].
  apply errs_in_bind; [|intros picked _; apply errs_in_ok]. apply errs_in_mapM. intros i _.
  destruct (nth_error z i); [apply errs_in_ok|apply errs_in_err; discriminate].
Qed.

Lemma sample_non_matches_ok o mt samples rexes all maxN fails rf smp' :
  sample_non_matches o mt samples rexes all maxN = Ok (fails, rf, smp') ->
  incl fails (combine (ex_strings all) (ex_freqs all)) /\
  (ne_samples samples -> ne_samples smp' /\ (fails = [] -> find_non_matches mt rexes all = Ok ([], rf))).
Proof.
  unfold sample_non_matches. intro H. apply bind_ok in H as [[failures rf0] [Ef H]].
  pose proof (find_non_matches_failures_sub _ _ _ _ _ Ef) as Hsub.
  destruct maxN as [mx|]; [destruct (Z.ltb mx _ && Z.ltb _ _)|];
    [apply bind_ok in H as [[picked rest] [Et H]]| |]; injection H as <- <- <-.
  2, 3: split; [exact Hsub|intro HF; split; [exact HF|intros ->; exact Ef]].
  split; [eapply incl_tran; [eapply take_sample_sub; exact Et|exact Hsub]|].
  intro HF. destruct (take_sample_nonempty _ _ _ _ HF Et) as [Hne Hrest]. split; [exact Hrest|].
  intro E. contradiction.
Qed.

Lemma sample_non_matches_err o mt samples rexes all maxN : errs_in not_fuel (sample_non_matches o mt samples rexes all maxN).
Proof.
  unfold sample_non_matches. apply errs_in_bind; [apply find_non_matches_err|intros [failures rf] _].
  destruct maxN as [mx|]; [|apply errs_in_ok]. destruct (_ && _); [|apply errs_in_ok].
  apply errs_in_bind; [apply take_sample_err|intros ps _; apply errs_in_ok].
Qed.

(* what Extractor.clean keeps, and the options that prune nothing: the vocabulary of CleanProofs (clean_wf,
   clean_empty_none_kept) and of LoopProofs (run_extractor_covers) *)
Definition is_nil {T} (l : list T) : bool := match l with [] => true | _ => false end.

(* an item that clean keeps: non-null, non-zero count, not an empty string under remove_empties *)
Definition kept (ct : chartab) (o : ropts) (it : option str * Z) : bool :=
  match fst it with
  | None => false
  | Some s => negb (Z.eqb (snd it) 0) &&
              negb (o_remove_empties o && is_nil (if o_strip o then strip_ct ct s else s))
  end.

(* well-formed stored examples: every stored pair would be kept by clean *)
Definition wf_all (ct : chartab) (o : ropts) (all : examples) : Prop :=
  length (ex_strings all) = length (ex_freqs all) /\
  forall sf, In sf (combine (ex_strings all) (ex_freqs all)) -> kept ct o (Some (fst sf), snd sf) = true.

Definition no_pruning (o : ropts) : Prop := o_max_patterns o = None /\ o_min_strings o <= 1.

Lemma find_bad_patterns_none o freqs : no_pruning o -> find_bad_patterns o freqs = [].
Proof.
  intros [H1 H2]. unfold find_bad_patterns. rewrite H1.
  destruct (Z.ltb_spec 1 (o_min_strings o)); [lia|reflexivity].
Qed.
