(* Fragment refinement covers its examples: every group string seen at a position of a VRLE is matched
   by the fragments refine_one produces for that position. *)
From Coq Require Import ZArith List Bool Lia.
From Tdda Require Import Base.ListFacts Base.Sexp Base.Str Rexpy.Chars Rexpy.Pipeline Rexpy.Sem.
Import ListNotations.
Open Scope Z_scope.

(* the string a run-length encoding stands for *)
Fixpoint expand (r : list (Z * Z)) : str :=
  match r with [] => [] | (c, n) :: r' => repeat c (Z.to_nat n) ++ expand r' end.

Lemma rle_aux_expand s : forall last n, 0 <= n -> expand (rle_aux last n s) = repeat last (Z.to_nat n) ++ s.
Proof.
  induction s as [|c s IH]; intros last n Hn; cbn [rle_aux expand].
  - reflexivity.
  - destruct (Z.eqb_spec c last) as [->|Hne].
    + rewrite IH by lia. rewrite Z2Nat.inj_add by lia. rewrite repeat_app. rewrite <- app_assoc. reflexivity.
    + cbn [expand]. rewrite IH by lia. reflexivity.
Qed.

Lemma run_length_encode_expand s : expand (run_length_encode s) = s.
Proof. destruct s as [|c s]; [reflexivity|]. unfold run_length_encode. rewrite rle_aux_expand by lia. reflexivity. Qed.

Definition pos_rle (r : list (Z * Z)) : Prop := Forall (fun x => 1 <= snd x) r.

Lemma rle_aux_pos s : forall last n, 1 <= n -> pos_rle (rle_aux last n s).
Proof.
  induction s as [|c s IH]; intros last n Hn; cbn [rle_aux].
  - constructor; [exact Hn|constructor].
  - destruct (Z.eqb c last); [apply IH; lia|]. constructor; [exact Hn|apply IH; lia].
Qed.

Lemma run_length_encode_pos s : pos_rle (run_length_encode s).
Proof. destruct s as [|c s]; [constructor|]. apply rle_aux_pos. lia. Qed.

Lemma expand_map_chars (f : Z -> Z) r : Forall (fun x => 0 <= snd x) r -> forall s, expand r = map f s ->
  True.
Proof. trivial. Qed.

(* run-length encoding commutes with a character map on the expansion: the string splits into pieces, one per run,
   on each of which the map is constant *)
Lemma expand_map_pieces (f : Z -> Z) r : pos_rle r -> forall s, expand r = map f s ->
  exists pieces, s = List.concat pieces /\
    Forall2 (fun p rn => Z.of_nat (length p) = snd rn /\ forall x, In x p -> f x = fst rn) pieces r.
Proof.
  induction 1 as [|[c n] r Hn _ IH]; intros s Hs; cbn [expand] in Hs.
  - symmetry in Hs. apply map_eq_nil in Hs. subst s. exists []. split; [reflexivity|constructor].
  - symmetry in Hs. apply map_eq_app in Hs as (p & s' & -> & Hp & Hs'). symmetry in Hs'.
    destruct (IH s' Hs') as (pieces & -> & Hf). exists (p :: pieces). split; [reflexivity|]. constructor; [|exact Hf].
    cbn [fst snd] in *. split.
    + rewrite <- (map_length f p), Hp, repeat_length. apply Z2Nat.id. lia.
    + intros x Hx. apply (repeat_spec (Z.to_nat n)). rewrite <- Hp. apply in_map. exact Hx.
Qed.

Definition strings_step (cap : Z) (st : list str * Z) (g : str) : list str * Z :=
  let '(strings, n) := st in
  let strings' := if Z.leb n cap then (if mem_str g strings then strings else strings ++ [g]) else strings in
  (strings', if Z.leb n cap then Z.of_nat (length strings') else n).

Lemma acc_step_strings ct e vl cap code a g :
  (a_strings (acc_step ct e vl cap code a g), a_n (acc_step ct e vl cap code a g)) =
  strings_step cap (a_strings a, a_n a) g.
Proof.
  unfold acc_step, strings_step. destruct (rle_fc_c ct e vl g code (a_fc a) (a_c a)) as [fc c]. reflexivity.
Qed.

(* refine_one only asks whether exactly one string was collected: the collected strings are distinct and were seen,
   and while at most one has been collected (and the cap is at least 1) nothing has been missed *)
Definition strings_inv (G : list str) (st : list str * Z) : Prop :=
  snd st = Z.of_nat (length (fst st)) /\ ((length (fst st) <= 1)%nat -> incl G (fst st)) /\
  incl (fst st) G /\ NoDup (fst st).

Lemma strings_inv_nil : strings_inv [] ([], 0).
Proof. repeat split; [intros _ g []|intros g []|constructor]. Qed.

Lemma strings_step_inv cap : 1 <= cap -> forall G st g, strings_inv G st -> strings_inv (G ++ [g]) (strings_step cap st g).
Proof.
  intros Hcap G [strings n] g (Hn & Hall & Hsub & Hnd). cbn [fst snd] in *. unfold strings_step.
  assert (Hsub' : incl strings (G ++ [g])) by apply incl_appl, Hsub.
  destruct (Z.leb_spec n cap) as [Hle|Hgt].
  - split; [reflexivity|]. cbn [fst]. destruct (mem_str g strings) eqn:Em.
    + split; [|split; assumption]. intro Hlen. apply incl_app; [exact (Hall Hlen)|].
      intros g' [<-|[]]. apply mem_str_In, Em.
    + rewrite app_length. split; [|split].
      * intro Hlen. apply incl_app; [apply incl_appl, Hall; lia|apply incl_appr, incl_refl].
      * apply incl_app; [exact Hsub'|apply incl_appr, incl_refl].
      * apply NoDup_snoc; [exact Hnd|]. intro Hin. apply mem_str_In in Hin. congruence.
  - split; [exact Hn|]. split; [cbn [fst]; intro Hlen; lia|split; assumption].
Qed.

Lemma strings_single G st s : strings_inv G st -> fst st = [s] -> forall g, In g G -> g = s.
Proof.
  intros (_ & Hall & _) Hs g Hg. rewrite Hs in Hall. destruct (Hall (le_n 1) g Hg) as [<-|[]]. reflexivity.
Qed.

Definition vr_key (v : Z * Z * Z) : Z := fst (fst v).
Definition vr_min (v : Z * Z * Z) : Z := snd (fst v).
Definition vr_max (v : Z * Z * Z) : Z := snd v.

Definition run_fits (r : Z * Z) (v : Z * Z * Z) : Prop := fst r = vr_key v /\ vr_min v <= snd r <= vr_max v.
Definition optional (v : Z * Z * Z) : Prop := vr_min v = 0 /\ 0 <= vr_max v.

Definition entry_wider (a b : Z * Z * Z) : Prop := vr_key a = vr_key b /\ vr_min b <= vr_min a /\ vr_max a <= vr_max b.

(* l is related entry by entry to a prefix of v, and the rest of v is optional *)
Fixpoint along {A} (rel : A -> Z * Z * Z -> Prop) (l : list A) (v : list (Z * Z * Z)) : Prop :=
  match l, v with
  | [], _ => Forall optional v
  | x :: l', y :: v' => rel x y /\ along rel l' v'
  | _ :: _, [] => False
  end.

(* an RLE fits a VRLE *)
Definition fits := along run_fits.

(* v' is v with ranges widened and possibly optional entries appended *)
Definition wider := along entry_wider.

Definition ranges_ok (v : list (Z * Z * Z)) : Prop := Forall (fun x => 0 <= vr_min x <= vr_max x) v.

Lemma optional_wider v : forall v', Forall optional v -> wider v v' -> ranges_ok v' -> Forall optional v'.
Proof.
  induction v as [|a v IH]; intros v' Ho Hw Hok; [exact Hw|].
  destruct v' as [|b v']; [destruct Hw|]. destruct Hw as [(_ & Hmn & Hmx) Hw].
  inversion Ho as [|? ? [Ha0 Ha1] Ho']; subst. inversion Hok as [|? ? Hb Hok']; subst.
  constructor; [split; lia|apply IH; assumption].
Qed.

Lemma fits_wider r : forall v v', fits r v -> wider v v' -> ranges_ok v' -> fits r v'.
Proof.
  induction r as [|x r IH]; intros v v' Hf Hw Hok; cbn [fits wider along] in *; [eapply optional_wider; eassumption|].
  destruct v as [|y v]; [destruct Hf|]. destruct v' as [|b v']; [destruct Hw|].
  destruct Hf as [[Hk Hr] Hf], Hw as [(Hk' & Hmn & Hmx) Hw]. inversion Hok; subst.
  split; [split; [congruence|lia]|eapply IH; eassumption].
Qed.

Lemma ranges_ok_optional ext : Forall optional ext -> ranges_ok ext.
Proof. intro H. eapply Forall_impl; [|exact H]. intros a [A B]. lia. Qed.

Lemma widen_some r v v' : 0 <= vr_min v <= vr_max v -> 0 <= snd r -> widen r v = Some v' ->
  run_fits r v' /\ entry_wider v v' /\ 0 <= vr_min v' <= vr_max v'.
Proof.
  destruct v as [[c m] M]. unfold widen, run_fits, entry_wider, vr_key, vr_min, vr_max. cbn [fst snd]. intros Hr Hn.
  destruct (Z.eqb_spec (fst r) c) as [Hk|]; [|discriminate]. intro H. injection H as <-.
  destruct (Z.leb_spec m (snd r)) as [H1|H1]; [destruct (Z.leb_spec (snd r) M) as [H2|H2]|]; cbn [andb];
    [|rewrite (proj2 (Z.ltb_ge _ _) H1)|rewrite (proj2 (Z.ltb_lt _ _) H1)]; cbn [fst snd]; lia.
Qed.

Lemma expand_or_falsify_cons x r y v vl : expand_or_falsify (x :: r) (TSome (y :: v)) vl =
  match widen x y, expand_or_falsify r (TSome v) vl with Some z, TSome o => TSome (z :: o) | _, _ => TFalse end.
Proof.
  cbn [expand_or_falsify length Nat.eqb Nat.min firstn skipn widen_all].
  destruct (widen x y) as [z|].
  - destruct (Nat.eqb (length r) (length v)); [destruct (widen_all r v); reflexivity|].
    destruct (negb vl); [reflexivity|]. destruct (widen_all _ _); [|reflexivity].
    destruct (Nat.eqb (length v) _); reflexivity.
  - destruct (Nat.eqb (length r) (length v)); [reflexivity|]. destruct (negb vl); reflexivity.
Qed.

Lemma along_map {A} (rel : A -> Z * Z * Z -> Prop) f l : Forall (fun x => rel x (f x)) l -> along rel l (map f l).
Proof. induction 1; cbn [map along]; [constructor|split; assumption]. Qed.

(* a list all of whose entries are taken over as optional ones *)
Lemma rest_optional {A} (rel : A -> Z * Z * Z -> Prop) f l : Forall (fun x => optional (f x) /\ rel x (f x)) l ->
  ranges_ok (map f l) /\ along rel l (map f l) /\ Forall optional (map f l).
Proof.
  intro H. assert (Hopt : Forall optional (map f l)) by (rewrite Forall_map; exact (Forall_impl _ (fun x => @proj1 _ _) H)).
  split; [apply ranges_ok_optional, Hopt|]. split; [|exact Hopt]. apply along_map. exact (Forall_impl _ (fun x => @proj2 _ _) H).
Qed.

(* on a VRLE already begun expand_or_falsify goes position by position: common positions are widened, and under vl
   what is left of the longer side becomes optional *)
Lemma expand_started vl : forall r v, pos_rle r -> ranges_ok v ->
  match expand_or_falsify r (TSome v) vl with
  | TNone => False
  | TFalse => True
  | TSome out => ranges_ok out /\ fits r out /\ wider v out
  end.
Proof.
  induction r as [|x r IH]; intros [|y v] Hpos Hok.
  - cbn. repeat constructor.
  - destruct vl; [|exact I]. cbn [expand_or_falsify length Nat.eqb negb Nat.min firstn widen_all skipn app].
    destruct (rest_optional entry_wider (fun '(c, _, M) => (c, 0, M)) (y :: v)) as (H1 & H2 & H3); [|exact (conj H1 (conj H3 H2))].
    eapply Forall_impl; [|exact Hok]. intros [[c m] M]. unfold optional, entry_wider, vr_key, vr_min, vr_max. cbn. lia.
  - destruct vl; [|exact I]. cbn [expand_or_falsify length Nat.eqb negb Nat.min firstn widen_all skipn app].
    apply (rest_optional run_fits (fun x => (fst x, 0, snd x)) (x :: r)).
    eapply Forall_impl; [|exact Hpos]. unfold optional, run_fits, vr_key, vr_min, vr_max. cbn. lia.
  - rewrite expand_or_falsify_cons. destruct (widen x y) as [z|] eqn:Ew; [|exact I].
    specialize (IH v (Forall_inv_tail Hpos) (Forall_inv_tail Hok)).
    destruct (expand_or_falsify r (TSome v) vl) as [| |out]; [destruct IH|exact I|]. destruct IH as (IH1 & IH2 & IH3).
    destruct (widen_some x y z (Forall_inv Hok) (Z.le_trans 0 1 _ Z.le_0_1 (Forall_inv Hpos)) Ew) as (Hf & Hw & Hz).
    split; [constructor; assumption|]. split; split; assumption.
Qed.

(* what the accumulated VRLE state says about the RLEs fed so far *)
Definition tri_inv (R : list (list (Z * Z))) (t : tri) : Prop :=
  match t with
  | TNone => R = []
  | TFalse => True
  | TSome v => ranges_ok v /\ forall r, In r R -> fits r v
  end.

Theorem expand_or_falsify_inv R r t vl :
  pos_rle r -> tri_inv R t -> tri_inv (R ++ [r]) (expand_or_falsify r t vl).
Proof.
  intros Hpos Hinv. destruct t as [| |v]; cbn [tri_inv] in Hinv; [|exact I|].
  - subst R. cbn [expand_or_falsify tri_inv]. split.
    + unfold ranges_ok. rewrite Forall_map. eapply Forall_impl; [|exact Hpos]. unfold vr_min, vr_max. cbn. intros; lia.
    + intros r' [<-|[]]. apply along_map. eapply Forall_impl; [|exact Hpos]. unfold run_fits, vr_key, vr_min, vr_max. cbn. intros; lia.
  - destruct Hinv as (Hok & Hall). pose proof (expand_started vl r v Hpos Hok) as H.
    destruct (expand_or_falsify r (TSome v) vl) as [| |out]; [destruct H|exact I|]. destruct H as (H1 & H2 & H3).
    split; [exact H1|]. intros r' Hin. apply in_app_or in Hin as [Hin|[<-|[]]]; [|exact H2].
    exact (fits_wider _ _ _ (Hall _ Hin) H3 H1).
Qed.

Definition plusify_sem (ct : chartab) (out : bool) (e : str) (fixed : bool) (key : Z) : Z -> bool :=
  if fixed then raw_sem key else cat_sem ct out e key.

Lemma plusify_matches ct out e fixed c m M p : m <= Z.of_nat (length p) <= M -> (p = [] -> m = 0) ->
  forallb (plusify_sem ct out e fixed c) p = true -> frag_matches ct out e (plusify fixed (c, m, M)) p.
Proof.
  intros Hn Hm Hp. unfold frag_matches, plusify. cbn [f_atom f_min f_max].
  replace (atom_pred ct out e (if fixed then ARaw c else AClass c)) with (Some (plusify_sem ct out e fixed c)) by (destruct fixed; reflexivity).
  split; [exact Hp|]. destruct (Z.leb (M - m) max_vrle_range); cbn [count_ok]; [exact Hn|].
  destruct p; [left; apply Hm; reflexivity|right; cbn [length]; lia].
Qed.

Lemma fits_matches ct out e (fixed : bool) (f : Z -> Z) s v :
  fits (run_length_encode (map f s)) v ->
  (forall x, In x s -> plusify_sem ct out e fixed (f x) x = true) ->
  matches_frags ct out e (map (plusify fixed) v) s.
Proof.
  intros Hfit Hsem. pose proof (run_length_encode_pos (map f s)) as Hpos.
  destruct (expand_map_pieces f _ Hpos s (run_length_encode_expand (map f s))) as [pieces [Hs Hp]].
  assert (Hin : forall p, In p pieces -> forall x, In x p -> In x s).
  { intros p Hp0 x Hx. rewrite Hs. apply in_concat. exists p. split; assumption. }
  rewrite Hs. clear Hs. revert v Hfit Hin Hpos.
  induction Hp as [|p rn ps rs [Hlen Hkey] _ IH]; intros v Hfit Hin Hpos; cbn [fits along List.concat] in *.
  - induction Hfit as [|[[c m] M] l [Hm HM] _ IH]; cbn [map]; [constructor|].
    apply (mf_cons ct out e _ _ [] []); [|exact IH].
    unfold vr_min, vr_max in Hm, HM. cbn [fst snd] in Hm, HM. apply plusify_matches; [cbn; lia|intros _; exact Hm|reflexivity].
  - destruct v as [|[[c m] M] v]; [destruct Hfit|]. destruct Hfit as [[Hk Hr] Hfit]. unfold vr_key, vr_min, vr_max in Hk, Hr. cbn [fst snd] in Hk, Hr.
    inversion Hpos as [|? ? Hrn Hrs]; subst. cbn [map]. constructor.
    + apply plusify_matches; [lia|intros ->; cbn in Hlen; lia|]. apply forallb_forall. intros x Hx.
      rewrite <- (Hkey x Hx). apply Hsem. apply (Hin p (or_introl eq_refl)). exact Hx.
    + apply IH; [exact Hfit| |exact Hrs]. intros p' Hp' x Hx. apply (Hin p' (or_intror Hp')). exact Hx.
Qed.

(* the one fact needed about the character tables: ASCII digits are decimal digits *)
Definition table_ok (ct : chartab) : Prop := forall c, is_09 c = true -> ct_decimal ct c = true.

Lemma cat_sem_B ct e c : cat_sem ct false e cB c = is_upper c || memc c e. Proof. reflexivity. Qed.
Lemma cat_sem_UC ct e c : cat_sem ct false e cUC c = (is_word ct c && negb (memc c (el_exc e))) || memc c (el_inc e).
Proof. reflexivity. Qed.
Lemma cat_sem_UM ct e c : cat_sem ct false e cUM c =
  match e with
  | [] => is_word ct c && negb (is_09 c) && negb (Z.eqb c 95)
  | _ => (is_word ct c && negb (is_09 c) && negb (memc c (el_exc e))) || memc c (el_inc e)
  end.
Proof. reflexivity. Qed.

Theorem fine_class_sound ct e c : table_ok ct ->
  cat_sem ct false e cUC c = true -> cat_sem ct false e (fine_class ct e c) c = true.
Proof.
  intros Htab Huc. unfold fine_class.
  destruct (ct_decimal ct c) eqn:Ed; [exact Ed|].
  destruct (is_lower c) eqn:El; [exact El|].
  destruct (is_upper c) eqn:Eu; [exact Eu|].
  destruct (memc c e) eqn:Em; [rewrite cat_sem_B, Em; apply orb_true_r|].
  assert (H09 : is_09 c = false).
  { destruct (is_09 c) eqn:E9; [|reflexivity]. rewrite (Htab c E9) in Ed. discriminate. }
  rewrite cat_sem_UC in Huc. rewrite cat_sem_UM. rewrite H09. cbn [negb].
  destruct e as [|e0 e'].
  - cbn [el_exc el_inc has_us memc existsb filter orb] in Huc. rewrite orb_false_r in Huc.
    apply andb_true_iff in Huc as [Hw Hx]. rewrite Hw. cbn [andb].
    rewrite orb_false_r in Hx. exact Hx.
  - apply orb_true_iff in Huc as [Huc|Huc]; [|rewrite Huc; apply orb_true_r].
    apply andb_true_iff in Huc as [Hw Hx]. rewrite Hw, Hx. reflexivity.
Qed.

Record pos_ok (ct : chartab) (e : str) (v : vfrag) (g : str) : Prop := {
  po_class : forallb (cat_sem ct false e (vf_code v)) g = true;
  po_count : count_ok (vf_min v) (vf_max v) (length g) }.

Definition acc_inv (ct : chartab) (e : str) (G : list str) (a : acc) : Prop :=
  strings_inv G (a_strings a, a_n a) /\
  (forall x, In x (a_chars a) <-> exists g, In g G /\ In x g) /\
  tri_inv (map (fun g => run_length_encode (map (fine_class ct e) g)) G) (a_fc a) /\
  tri_inv (map (fun g => run_length_encode g) G) (a_c a).

Lemma acc0_inv ct e : acc_inv ct e [] acc0.
Proof.
  split; [exact strings_inv_nil|]. repeat split; [intros []|intros [g [[] _]]].
Qed.

Lemma acc_step_inv ct e vl cap code : 1 <= cap -> forall G a g,
  acc_inv ct e G a -> acc_inv ct e (G ++ [g]) (acc_step ct e vl cap code a g).
Proof.
  intros Hcap G a g (Hs & Hc & Hfc & Hcc).
  assert (Hstr := acc_step_strings ct e vl cap code a g).
  unfold acc_inv. split; [|split].
  - rewrite Hstr. apply strings_step_inv; assumption.
  - unfold acc_step. destruct (rle_fc_c ct e vl g code (a_fc a) (a_c a)) as [fc c]. cbn [a_chars].
    intro x. rewrite add_chars_In, Hc. split.
    + intros [Hx|[g0 [Hg0 Hx]]]; [exists g; split; [apply in_or_app; right; left; reflexivity|exact Hx]|
                                   exists g0; split; [apply in_or_app; left; exact Hg0|exact Hx]].
    + intros [g0 [Hg0 Hx]]. apply in_app_or in Hg0 as [Hg0|[<-|[]]]; [right; exists g0; split; assumption|left; exact Hx].
  - unfold acc_step. destruct (rle_fc_c ct e vl g code (a_fc a) (a_c a)) as [fc c] eqn:Er. cbn [a_fc a_c].
    unfold rle_fc_c in Er. rewrite !map_app. cbn [map].
    destruct (negb (Z.eqb code cUC) || (is_false (a_fc a) && is_false (a_c a))).
    + injection Er as <- <-. split; exact I.
    + injection Er as <- <-. split.
      * apply expand_or_falsify_inv; [apply run_length_encode_pos|exact Hfc].
      * apply expand_or_falsify_inv; [apply run_length_encode_pos|exact Hcc].
Qed.

Lemma tri_nonempty_fits R t l : tri_inv R t -> tri_nonempty t = Some l -> forall r, In r R -> fits r l.
Proof. destruct t as [| |[|x v]]; cbn; intros H E; try discriminate. injection E as <-. exact (proj2 H). Qed.

Lemma single_frag_covers ct out e a m M p g :
  atom_pred ct out e a = Some p -> (forall x, In x g -> p x = true) -> count_ok m M (length g) ->
  matches_frags ct out e [{| f_atom := a; f_min := m; f_max := M |}] g.
Proof.
  intros Ha Hp Hc. apply matches_frags_single. unfold frag_matches. cbn [f_atom f_min f_max]. rewrite Ha.
  split; [apply forallb_forall; exact Hp|exact Hc].
Qed.

Lemma refine_rest_covers ct mp e n v a G :
  table_ok ct -> acc_inv ct e G a -> (forall g, In g G -> pos_ok ct e v g) ->
  forall g, In g G -> matches_frags ct false e (fst (refine_rest ct mp e n v a)) g.
Proof.
  intros Htab (Hs & Hc & Hfc & Hcc) Hok g Hg.
  assert (Hchars : forall x, In x g -> In x (a_chars a)) by (intros x Hx; apply Hc; exists g; split; assumption).
  destruct (Hok g Hg) as [Hcls Hcnt]. rewrite forallb_forall in Hcls.
  (* every single fragment refine_rest makes carries the coarse counts *)
  pose proof (fun at_ p Ha Hp => single_frag_covers ct false e at_ (vf_min v) (vf_max v) p g Ha Hp Hcnt) as Hsingle.
  unfold refine_rest.
  set (multi := if Z.eqb (vf_code v) cUC then _ else _).
  assert (Hmulti : matches_frags ct false e (fst multi) g).
  { subst multi. destruct (Z.eqb_spec (vf_code v) cUC) as [Ecode|Ecode].
    - destruct (tri_nonempty (a_c a)) as [rlec|] eqn:Erc.
      + cbn [fst]. apply (fits_matches ct false e true (fun x => x));
          [rewrite map_id; apply (tri_nonempty_fits _ _ _ Hcc Erc), in_map, Hg|].
        intros x _. unfold plusify_sem, raw_sem. rewrite Z.eqb_refl. apply orb_true_r.
      + set (general := match List.find _ (general_order e) with Some code => _ | None => _ end).
        assert (Hgeneral : matches_frags ct false e (fst general) g).
        { subst general. destruct (List.find _ (general_order e)) as [code|] eqn:Ef; cbn [fst];
            (eapply Hsingle; [reflexivity|]); [|exact Hcls].
          apply List.find_some in Ef as [_ Ef]. rewrite forallb_forall in Ef. intros x Hx. apply Ef, Hchars, Hx. }
        destruct (tri_nonempty (a_fc a)) as [rlefc|] eqn:Erf; [|exact Hgeneral].
        destruct (Z.leb _ max_groups); [|exact Hgeneral]. cbn [fst].
        apply (fits_matches ct false e false (fine_class ct e));
          [apply (tri_nonempty_fits _ _ _ Hfc Erf), (in_map (fun g => run_length_encode (map (fine_class ct e) g))), Hg|].
        intros x Hx. apply fine_class_sound; [exact Htab|]. rewrite <- Ecode. apply Hcls, Hx.
    - destruct (Z.eqb (vf_code v) cP && _); cbn [fst]; (eapply Hsingle; [reflexivity|]); [|exact Hcls].
      intros x Hx. apply memc_In, Hchars, Hx. }
  clearbody multi.
  destruct (a_chars a) as [|ch1 [|ch2 chs]] eqn:Ech; [exact Hmulti| |exact Hmulti].
  cbn [fst]. eapply Hsingle; [reflexivity|]. intros x Hx. destruct (Hchars x Hx) as [<-|[]]. apply Z.eqb_refl.
Qed.

Lemma frag_matches_lit ct out e s : frag_matches ct out e {| f_atom := ALit s; f_min := 1; f_max := Some 1 |} s.
Proof.
  unfold frag_matches. cbn [f_atom f_min f_max]. destruct s as [|c [|c1 s']]; cbn [atom_pred].
  - repeat split; reflexivity.
  - split; [cbn [forallb]; rewrite Z.eqb_refl; reflexivity|cbn [count_ok length]; lia].
  - repeat split; reflexivity.
Qed.

Theorem refine_one_covers ct mp e n v a G :
  table_ok ct -> acc_inv ct e G a -> (forall g, In g G -> pos_ok ct e v g) ->
  forall g, In g G -> matches_frags ct false e (fst (refine_one ct mp e n v a)) g.
Proof.
  intros Htab Hinv Hok g Hg. unfold refine_one.
  destruct (a_strings a) as [|s0 [|s1 ss]] eqn:Es; try (eapply refine_rest_covers; eassumption).
  cbn [fst]. apply matches_frags_single. destruct Hinv as (Hs & _).
  rewrite (strings_single G (a_strings a, a_n a) s0 Hs Es g Hg). apply frag_matches_lit.
Qed.

Definition group_column (i : nat) (groups : list (list str)) : list str := map (fun gs => nth i gs []) groups.

Lemma zip_with_length {A B C} (f : A -> B -> C) l1 l2 : length (zip_with f l1 l2) = Nat.min (length l1) (length l2).
Proof. revert l2; induction l1 as [|a l1 IH]; intros [|b l2]; cbn [zip_with length Nat.min]; try reflexivity. rewrite IH. reflexivity. Qed.

Lemma zip_with_nth {A B C} (f : A -> B -> C) l1 l2 i da db dc :
  (i < length l1)%nat -> (i < length l2)%nat -> nth i (zip_with f l1 l2) dc = f (nth i l1 da) (nth i l2 db).
Proof.
  revert l2 i; induction l1 as [|a l1 IH]; intros [|b l2] i H1 H2; cbn [length] in *; try lia.
  destruct i as [|i]; cbn [zip_with nth]; [reflexivity|]. apply IH; lia.
Qed.

Section Fold.
  Variables (ct : chartab) (e : str) (vl : bool) (cap : Z) (vrle : list vfrag).

  Definition fold_step (accs : list acc) (gs : list str) : list acc :=
    zip_with (fun va g => acc_step ct e vl cap (vf_code (fst va)) (snd va) g) (combine vrle accs) gs.

  Lemma fold_len : forall groups accs,
    (forall gs, In gs groups -> length gs = length vrle) -> length accs = length vrle ->
    length (fold_left fold_step groups accs) = length vrle.
  Proof.
    induction groups as [|gs groups IH]; intros accs Hlen Ha; cbn [fold_left]; [exact Ha|].
    apply IH; [intros g Hg; apply Hlen; right; exact Hg|].
    unfold fold_step. rewrite zip_with_length, combine_length. rewrite (Hlen gs (or_introl eq_refl)). lia.
  Qed.

  Lemma fold_nth i : (i < length vrle)%nat -> forall groups accs,
    (forall gs, In gs groups -> length gs = length vrle) -> length accs = length vrle ->
    nth i (fold_left fold_step groups accs) acc0 =
    fold_left (acc_step ct e vl cap (vf_code (nth i vrle (0, 0, None)))) (group_column i groups) (nth i accs acc0).
  Proof.
    intro Hi. induction groups as [|gs groups IH]; intros accs Hlen Ha; cbn [fold_left group_column map]; [reflexivity|].
    assert (Hgs : length gs = length vrle) by (apply Hlen; left; reflexivity).
    rewrite IH; [|intros g Hg; apply Hlen; right; exact Hg|apply (fold_len [gs]); [intros g [<-|[]]; exact Hgs|exact Ha]].
    apply f_equal. unfold fold_step.
    rewrite (zip_with_nth (fun (va : vfrag * acc) (g : str) => acc_step ct e vl cap (vf_code (fst va)) (snd va) g)
                          (combine vrle accs) gs i ((0, 0, None), acc0) [] acc0) by (rewrite ?combine_length; lia).
    rewrite combine_nth by (symmetry; exact Ha). reflexivity.
  Qed.
End Fold.

Lemma refine_all_covers ct mp e : forall vs accs n gs,
  length accs = length vs -> length gs = length vs ->
  (forall i m, (i < length vs)%nat ->
     matches_frags ct false e (fst (refine_one ct mp e m (nth i vs (0, 0, None)) (nth i accs acc0))) (nth i gs [])) ->
  matches_frags ct false e (refine_all ct mp e n vs accs) (List.concat gs).
Proof.
  induction vs as [|v vs IH]; intros accs n gs Ha Hg Hall.
  - destruct gs; [|discriminate]. destruct accs; [|discriminate]. constructor.
  - destruct accs as [|a accs]; [discriminate|]. destruct gs as [|g gs]; [discriminate|].
    cbn [refine_all List.concat]. destruct (refine_one ct mp e n v a) as [fs n'] eqn:Er.
    apply matches_frags_app.
    + specialize (Hall O n ltac:(cbn; lia)). cbn [nth] in Hall. rewrite Er in Hall. exact Hall.
    + apply IH; [cbn in Ha; lia|cbn in Hg; lia|]. intros i m Hi. apply (Hall (S i) m). cbn [length]. lia.
Qed.

(* The refinement of a VRLE covers every example it was built from: if each example's group strings
   (whatever split the regular-expression engine chose) satisfy the coarse fragment they were matched
   by, then the concatenation of the groups is matched by the refined fragments. *)
Theorem refine_covers ct mp e vl cap vrle (groups : list (list str)) :
  table_ok ct -> 1 <= cap ->
  (forall gs, In gs groups -> Forall2 (pos_ok ct e) vrle gs) ->
  let accs := fold_left (fold_step ct e vl cap vrle) groups (map (fun _ => acc0) vrle) in
  forall gs, In gs groups ->
    matches_frags ct false e (refine_all ct mp e (Z.of_nat (length vrle)) vrle accs) (List.concat gs).
Proof.
  intros Htab Hcap Hok accs gs Hgs.
  assert (Hlens : forall gs0, In gs0 groups -> length gs0 = length vrle).
  { intros gs0 H0. symmetry. eapply Forall2_length. apply Hok. exact H0. }
  pose proof (map_length (fun _ : vfrag => acc0) vrle) as Hinit.
  apply refine_all_covers; [apply fold_len; assumption|apply Hlens; exact Hgs|].
  intros i m Hi. subst accs. rewrite (fold_nth ct e vl cap vrle i Hi groups _ Hlens Hinit), nth_map_const.
  apply refine_one_covers with (G := group_column i groups); [exact Htab|apply (fold_left_snoc_inv _ _ (acc_step_inv ct e vl cap _ Hcap) _ []), acc0_inv| |].
  - intros g Hg. apply in_map_iff in Hg as [gs0 [<- Hgs0]].
    apply (Forall2_nth (pos_ok ct e) vrle gs0 (0, 0, None) [] i (Hok gs0 Hgs0) Hi).
  - apply (in_map (fun gs => nth i gs [])). exact Hgs.
Qed.
