(* C19 - tagged runs execute exactly the tagged tests; listing runs none.
   The statements about the argv scanner (RefTest/Argv.v) and the tagged loader (RefTest/Tagged.v); their lemmas
   are in RefTest/ArgvProofs.v and RefTest/TaggedProofs.v. *)
From Coq Require Import ZArith List.
From Tdda Require Import Base.Str Base.Sort Generated.Consts RefTest.Argv RefTest.ArgvProofs RefTest.Tagged
  RefTest.TaggedProofs.
Import ListNotations.
Open Scope Z_scope.

(* T: the flag spellings the property names are the ones the code scans for *)
Theorem C19_flag_spellings :
  argv_char_tagged = 49 /\ argv_char_check = 48 /\ argv_char_regen = 87 /\
  argv_tag_flags = [[45;45;116;97;103;103;101;100]; [45;45;105;115;116;97;103;103;101;100]] /\
  argv_check_options = [[45;48]; [45;45;105;115;116;97;103;103;101;100]].
Proof. repeat split. Qed.
Print Assumptions C19_flag_spellings.

(* The scanner removes exactly the tdda flags (order of everything else preserved) and
   reports tagged/check/regenerate/quiet, for every command line in the domain. *)
Theorem C19_strip_spec : forall prog rest,
  in_domain prog rest = true ->
  set_flags (prog :: rest) = Some (spec_result prog rest).
Proof. exact strip_spec_proof. Qed.
Print Assumptions C19_strip_spec.

(* The whole run = scanner composed with the (tag-filtering) loader. *)
Theorem C19_run_spec : forall rs prog rest,
  in_domain prog rest = true ->
  forallb (fun f => mem_str f unittest_flags) (filter is_dash_arg (run_args prog rest)) = true ->
  names_contiguous (run_args prog rest) = true ->
  run_module rs (prog :: rest) =
  select (ar_tagged (spec_result prog rest)) (ar_check (spec_result prog rest))
    (match filter (fun a => negb (is_dash_arg a)) (run_args prog rest) with
     | [] => isort class_leb (resolve rs)
     | names => lookup_names names (resolve rs)
     end).
Proof.
  intros rs prog rest Hd Hf Hc. unfold run_module. rewrite (strip_spec_proof _ _ Hd).
  fold (run_args prog rest). rewrite Hf, Hc.
  destruct (filter (fun a => negb (is_dash_arg a)) (run_args prog rest)); reflexivity.
Qed.
Print Assumptions C19_run_spec.

(* Under the tagged option the executed tests are exactly those carrying the tag
   themselves or through their class ... *)
Theorem C19_tagged_selection_exact : forall cs cn n,
  In (cn, n) (selected_cases true false cs) <->
  exists c m, In c cs /\ tc_name c = cn /\ In m (tc_methods c) /\ fst m = n /\ eff_tagged c m = true.
Proof. exact tagged_selection_exact_proof. Qed.
Print Assumptions C19_tagged_selection_exact.

(* ... each once *)
Theorem C19_tagged_selection_once : forall cs,
  NoDup (map tc_name cs) ->
  (forall c, In c cs -> NoDup (map fst (tc_methods c))) ->
  NoDup (selected_cases true false cs).
Proof.
  intros cs H1 H2. unfold selected_cases, select. apply qualified_names_NoDup; [exact H1|].
  intros c Hc. apply tagged_names_NoDup. apply H2. exact Hc.
Qed.
Print Assumptions C19_tagged_selection_once.

(* without the option every test runs *)
Theorem C19_untagged_runs_all : forall cs,
  select false false cs =
  Ran (flat_map (fun c => map (fun m => (tc_name c, fst m)) (tc_methods c)) cs) [].
Proof.
  intro cs. unfold select, all_names. f_equal. induction cs as [|c cs IH]; simpl; [reflexivity|].
  rewrite IH, map_map. reflexivity.
Qed.
Print Assumptions C19_untagged_runs_all.

(* list-tagged: no test executes; exactly the classes containing tagged tests are named *)
Theorem C19_list_runs_none : forall t cs,
  selected_cases t true cs = [] /\
  forall cn, In cn (listed_classes t true cs) <->
             exists c, In c cs /\ tc_name c = cn /\
                       exists m, In m (tc_methods c) /\ eff_tagged c m = true.
Proof. exact list_runs_none_proof. Qed.
Print Assumptions C19_list_runs_none.

(* non-vacuity: a concrete command line meets the hypotheses and gives the expected run.
   prog -v1 TA --tagged  on  class TA: test_a (tagged), test_b;  class TB: test_c *)
Example C19_domain_inhabited :
  let prog := [112] in
  let rest := [[45;118;49]; [84;65]; [45;45;116;97;103;103;101;100]] in
  let rs := [ {| rc_name := [84;65]; rc_base := None; rc_tagged := false;
                 rc_methods := [([116;95;98], false); ([116;95;97], true)] |};
              {| rc_name := [84;66]; rc_base := None; rc_tagged := false;
                 rc_methods := [([116;95;99], false)] |} ] in
  in_domain prog rest = true /\
  forallb (fun f => mem_str f unittest_flags) (filter is_dash_arg (run_args prog rest)) = true /\
  names_contiguous (run_args prog rest) = true /\
  run_module rs (prog :: rest) = Ran [([84;65], [116;95;97])] [].
Proof. vm_compute. repeat split. Qed.

(* Outside in_domain the statement is FALSE of the faithful model - and of the code (the recorded findings
   c19-tagging-option-after-write-kinds and c19-attached-option-value-scanned; witnesses by computation):
   --tagged written after -w <kind> is taken as another kind name, so the tagged loader is never installed ... *)
Theorem C19_tagged_after_write_kinds_refuted :
  exists argv r,
    argv = [[112; 114; 111; 103]; [45; 119]; [103; 114; 97; 112; 104]; [45; 45; 116; 97; 103; 103; 101; 100]] /\
    set_flags argv = Some r /\ ar_tagged r = false /\
    In (Some [45; 45; 116; 97; 103; 103; 101; 100]) (ar_kinds r).
Proof. eexists. eexists. split; [reflexivity|]. vm_compute. repeat split; auto. Qed.
Print Assumptions C19_tagged_after_write_kinds_refuted.

(* ... and the value attached to a unittest option (-ktest_c1) is scanned for the flag letters: tagged mode is
   switched on although no tagging option was given, and unittest receives -ktest_c *)
Theorem C19_attached_option_value_refuted :
  exists argv r,
    argv = [[112; 114; 111; 103]; [45; 107; 116; 101; 115; 116; 95; 99; 49]] /\
    set_flags argv = Some r /\ ar_tagged r = true /\
    ar_argv r = [[112; 114; 111; 103]; [45; 107; 116; 101; 115; 116; 95; 99]].
Proof. eexists. eexists. split; [reflexivity|]. vm_compute. repeat split. Qed.
Print Assumptions C19_attached_option_value_refuted.
