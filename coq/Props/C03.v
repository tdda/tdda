(* C03 - every example string is matched by one of the regular expressions rexpy returns.
   Statements are about run_extractor (Rexpy/Pipeline.v), the model of Extractor.__init__ + extract(),
   for every character table, option record, oracle tables (group splits, matches, sample selections)
   and input list.  "Matched" is what the match oracle (CPython re.match, recorded per run) says. *)
From Coq Require Import ZArith List.
From Tdda Require Import Base.Sexp Rexpy.Chars Rexpy.Pipeline Rexpy.PipelineProofs Rexpy.Sem Rexpy.OracleCheck
     Rexpy.RefineProofs Rexpy.BatchProofs Rexpy.LoopProofs Rexpy.Regex Rexpy.RegexFast Rexpy.RegexProofs.
Import ListNotations.
Open Scope Z_scope.

(* Whenever the run ends with a check that reported no failure (lo_last_failures = []; the harness observes
   this on every real run), every example that clean keeps - nulls, zero counts and, under remove_empties,
   empty strings being the explicit discards - is matched by one of the returned expressions.
   Hypotheses: frequencies are not negative; every random.sample selection is non-empty (k >= 1);
   no pruning option (max_patterns / min_strings_per_pattern) and the perl dialect, for which the
   returned expressions are the checked ones. *)
Theorem C03_loop_covers : forall ct o gt mt samples items lo,
  run_extractor ct o gt mt samples items = Ok lo ->
  (forall it, In it items -> 0 <= snd it) ->
  ne_samples samples -> 0 <= z_max_sampled_attempts o ->
  no_pruning o -> o_dialect_out o = false ->
  lo_none lo = false -> lo_last_failures lo = [] ->
  forall s, In s (ex_strings (fst (clean ct o items))) ->
  exists r, In r (lo_rex lo) /\ lookup_match mt r s = Some true.
Proof. intros ct o gt mt samples items lo H Hnn HF _. exact (run_extractor_covers ct o gt mt samples items lo H Hnn HF). Qed.
Print Assumptions C03_loop_covers.

(* The explicit discards are exactly: nulls, zero counts, empties when empties are removed: if clean keeps
   nothing it kept no item, and every stored example would be kept again (so the check's failures are real). *)
Theorem C03_clean_keeps : forall ct o items,
  (ex_strings (fst (clean ct o items)) = [] -> forall it, In it items -> kept ct o it = false) /\
  ((forall it, In it items -> 0 <= snd it) -> wf_all ct o (fst (clean ct o items))).
Proof. intros ct o items. split; [apply CleanProofs.clean_empty_none_kept|apply CleanProofs.clean_wf]. Qed.
Print Assumptions C03_clean_keeps.

(* The check itself: when find_non_matches reports no failure, every stored example is matched. *)
Theorem C03_check_complete : forall mt rexes all re_freqs,
  rexes <> [] -> length (ex_strings all) = length (ex_freqs all) ->
  find_non_matches mt rexes all = Ok ([], re_freqs) ->
  forall s, In s (ex_strings all) -> exists r, In r rexes /\ lookup_match mt r s = Some true.
Proof. intros mt rexes all re_freqs _. apply find_non_matches_complete. Qed.
Print Assumptions C03_check_complete.

(* One batch extraction covers its own working examples, whatever they are: every working example is matched -
   at the level of what each fragment denotes (a literal string, a raw character, the character set of a category,
   a bracket set; min/max read as the rendered quantifier) - by one of the refined patterns returned.
   Hypotheses: ASCII digits are decimal digits in the character table (true of the interpreter's: py_table_ok);
   max_strings_in_group >= 1; and the group-split oracle is sane on this run (checked executably for every real
   run by batch_oracle_okb: the groups re.match delivers concatenate to the example and each group consists of
   characters of its coarse category, within the coarse fragment's count bounds). *)
Theorem C03_batch_covers : forall ct o e stripped gt ex merged rex,
  batch_extract ct o e stripped gt ex = Ok (merged, rex) ->
  table_ok ct -> 1 <= z_max_strings_in_group o ->
  batch_oracle_okb ct o e stripped gt ex = true ->
  forall s, In s (ex_strings ex) -> exists fs, In fs merged /\ matches_frags ct false e fs s.
Proof. exact batch_covers_checked. Qed.
Print Assumptions C03_batch_covers.

(* the heart of it: the fragments refined for a VRLE match every example they were refined from, for ANY split
   into groups that respects the coarse fragments (so the argument does not depend on how the regular-expression
   engine resolves ambiguous splits) *)
Theorem C03_refine_covers : forall ct mp e vl cap vrle (groups : list (list str)),
  table_ok ct -> 1 <= cap ->
  (forall gs, In gs groups -> Forall2 (pos_ok ct e) vrle gs) ->
  let accs := fold_left (fold_step ct e vl cap vrle) groups (map (fun _ => acc0) vrle) in
  forall gs, In gs groups ->
    matches_frags ct false e (refine_all ct mp e (Z.of_nat (length vrle)) vrle accs) (List.concat gs).
Proof. exact refine_covers. Qed.
Print Assumptions C03_refine_covers.

Theorem C03_interpreter_tables_ok : table_ok py_chartab.
Proof. exact py_table_ok. Qed.
Print Assumptions C03_interpreter_tables_ok.

(* AT THE LEVEL OF THE TEXT.  Rexpy/Regex.v models the regular-expression syntax rexpy writes (parser from text to
   quantified character sets - literals, escapes, bracket expressions, the (a|b) alternations of extra letters, capture
   groups - and a backtracking matcher proved sound and complete for its specification; compared with CPython re on
   every evaluated pair).  For every set of extra letters Categories can hold (extras8) and any pattern whose fragments
   are renderable (known categories; non-negative counts), the text rendered for it - escaped or not, with or without
   \s* padding and capture groups - parses, and the model's reading of the text accepts every string the pattern
   matches fragment by fragment. *)
Theorem C03_rendered_text_matches : forall out ct e full stripped tagged frags text s,
  In e extras8 ->
  forallb (frag_renderable e) frags = true ->
  vrle2re out full e stripped tagged frags = Ok text ->
  matches_frags ct out e frags s ->
  re_model_fullmatch ct text s = Some true.
Proof. exact rendered_text_matches. Qed.
Print Assumptions C03_rendered_text_matches.

(* ... and exactly those (no padding): the text denotes what the pattern denotes *)
Theorem C03_rendered_text_exact : forall out ct e full tagged frags text s,
  In e extras8 -> forallb (frag_renderable e) frags = true ->
  vrle2re out full e false tagged frags = Ok text ->
  (re_model_fullmatch ct text s = Some true <-> matches_frags ct out e frags s).
Proof. exact rendered_text_exact. Qed.
Print Assumptions C03_rendered_text_exact.

(* the extra letters of a run are always one of extras8 *)
Theorem C03_extras_normalised : forall x, In (norm_extras x) extras8.
Proof. exact norm_extras_in8. Qed.
Print Assumptions C03_extras_normalised.

(* ... so one batch extraction covers its working examples as TEXT: each is matched by one of the expressions *)
Theorem C03_batch_text_covers : forall ct o e stripped gt ex merged rex,
  batch_extract ct o e stripped gt ex = Ok (merged, rex) ->
  table_ok ct -> 1 <= z_max_strings_in_group o ->
  batch_oracle_okb ct o e stripped gt ex = true ->
  batch_renderable ct o e stripped gt ex = true ->
  forall s, In s (ex_strings ex) -> exists text, In text rex /\ re_model_fullmatch ct text s = Some true.
Proof. intros ct o e stripped gt ex merged rex Hb Ht Hc Ho Hr. exact (proj1 (batch_internal_texts_cover _ _ _ _ _ _ _ _ Hb Ht Hc Ho Hr)). Qed.
Print Assumptions C03_batch_text_covers.

(* The portable and grep dialects RETURN the patterns rendered again with the output categories (out = true: the
   digit class becomes [0-9]); C03_rendered_text_matches and C03_rendered_text_exact hold for that rendering too (out is universally quantified),
   with the fragment semantics in which a digit is an ASCII digit.  So the returned expressions cover the working
   examples exactly when the examples' decimal digits are ASCII ... *)
Theorem C03_batch_portable_covers : forall ct o e stripped gt ex merged rex prex,
  batch_extract ct o e stripped gt ex = Ok (merged, rex) ->
  table_ok ct -> 1 <= z_max_strings_in_group o ->
  batch_oracle_okb ct o e stripped gt ex = true ->
  batch_renderable ct o e stripped gt ex = true ->
  mapM (vrle2re true (o_full_escape o) e stripped (o_tag o)) merged = Ok prex ->
  (forall s, In s (ex_strings ex) -> ascii_decimals ct s) ->
  forall s, In s (ex_strings ex) -> exists text, In text prex /\ re_model_fullmatch ct text s = Some true.
Proof.
  intros ct o e stripped gt ex merged rex prex Hb Ht Hc Ho Hr Hp Ha.
  exact (proj1 (batch_portable_texts_cover _ _ _ _ _ _ _ _ _ Hb Ht Hc Ho Hr Hp Ha)).
Qed.
Print Assumptions C03_batch_portable_covers.

(* ... the portable text accepts nothing the internal one rejects ... *)
Theorem C03_portable_text_within : forall ct e full tagged frags text s,
  In e extras8 -> forallb (frag_renderable e) frags = true ->
  (forall c, is_09 c = true -> ct_decimal ct c = true) ->
  vrle2re true full e false tagged frags = Ok text ->
  re_model_fullmatch ct text s = Some true -> matches_frags ct false e frags s.
Proof.
  intros ct e full tagged frags text s He Hr Hd Hv Hm. apply (rendered_text_exact true ct e full tagged frags text s He Hr Hv) in Hm.
  exact (matches_frags_out_mono ct e frags s true false (fun c _ => Hd c) Hm).
Qed.
Print Assumptions C03_portable_text_within.

(* ... and without the hypothesis on digits the full statement is FALSE of the faithful model and of the code:
   the witness is the known finding c03-portable-digits (U+0663 U+0664 under Python's character tables). *)
Theorem C03_portable_refuted :
  exists frags text s,
    vrle2re true false [] false false frags = Ok text /\
    forallb (frag_renderable []) frags = true /\
    matches_frags py_chartab false [] frags s /\
    re_model_fullmatch py_chartab text s = Some false.
Proof. exact portable_gap_refuted. Qed.
Print Assumptions C03_portable_refuted.

(* the extracted model evaluates expressions with a polynomial matcher (reachable positions; the backtracking
   one is exponential on a?-?a?-?...): it decides exactly the same thing, for every expression and string *)
Theorem C03_fast_matcher_equiv : forall ct text s,
  re_fast_match ct text s = re_model_match ct text s /\ re_fast_fullmatch ct text s = re_model_fullmatch ct text s.
Proof. intros ct text s. split; [apply re_fast_match_spec|apply re_fast_fullmatch_spec]. Qed.
Print Assumptions C03_fast_matcher_equiv.

(* the model's matcher decides its specification (a string is accepted iff it splits into runs each within its
   character set and count) *)
Theorem C03_matcher_spec : forall ct items s, match_items ct items s = true <-> lang ct items s.
Proof. exact match_items_spec. Qed.
Print Assumptions C03_matcher_spec.

(* The extraction loop (Extractor.extract: sampled attempts, then unsampled passes until a check adds nothing) always
   ends: for every input, option set and oracle, the model's bound on the number of passes -
   max_sampled_attempts + number of stored strings + 2 - is never what stops a run.  (Each unsampled pass that
   does not stop adds a stored string that the working examples did not have.) *)
Theorem C03_loop_terminates : forall ct o gt mt samples items, run_extractor ct o gt mt samples items <> Err E_FUEL.
Proof. exact run_extractor_fuel. Qed.
Print Assumptions C03_loop_terminates.

(* ... and when it ends, every stored string that the last check found unmatched is one of the working examples
   (no string outside the working set is left unmatched; C03_batch_covers is about the working set itself) *)
Theorem C03_last_failures_are_working_examples : forall ct o gt mt samples items lo,
  run_extractor ct o gt mt samples items = Ok lo ->
  forall s, In s (lo_last_failures lo) -> In s (ex_strings (lo_examples lo)).
Proof.
  intros ct o gt mt samples items lo H. pattern lo. apply (run_extractor_cases _ _ _ _ _ _ _ _ H).
  intros picked rf0 samples1 _ ex. split; [intros _ s []|].
  intros e fuel merged rex rf lf ex' samples2 passes final _ El _.
  apply extract_loop_last in El as (_ & _ & _ & _ & _ & _ & _ & Hl). exact Hl.
Qed.
Print Assumptions C03_last_failures_are_working_examples.

(* the bracket for the punctuation set {^, -} no longer starts with a bare caret (the [^-] defect) *)
Example C03_escaped_bracket_caret : escaped_bracket false [94; 45] = [91; 92; 94; 45; 93].
Proof. reflexivity. Qed.

From Coq Require Import String.
Open Scope string_scope.
(* non-vacuity: a two-example run through the model with its recorded oracle tables *)
Example C03_run_example :
  let o := {| o_tag := false; o_extra := []; o_full_escape := false; o_remove_empties := false; o_strip := false;
              o_vlf := false; o_max_patterns := None; o_min_strings := 1; o_dialect_out := false;
              z_do_all := Some 100; z_do_all_exceptions := 4000; z_max_sampled_attempts := 2;
              z_max_punc_in_group := 5; z_max_strings_in_group := 10 |} in
  let tagged := s2l "^([^\W_]{2,3})$" in
  let rex := s2l "^[a-z]{2,3}$" in
  match run_extractor py_chartab o [(tagged, s2l "ab", [s2l "ab"]); (tagged, s2l "cde", [s2l "cde"])]
                      [(rex, s2l "ab", true); (rex, s2l "cde", true)] [] [(Some (s2l "ab"), 1); (Some (s2l "cde"), 1)] with
  | Ok lo => lo_rex lo = [rex] /\ lo_last_failures lo = [] /\ lo_none lo = false
  | Err _ => False
  end.
Proof. vm_compute. repeat split. Qed.
