(* C07 - discovery reports exact statistics of the data (constraints are tight). *)
From Coq Require Import ZArith List Bool.
From Tdda Require Import Constraints.Model Constraints.ModelProofs Constraints.AllowedProofs.
Import ListNotations.
Open Scope Z_scope.

Theorem C07_max_categories_pinned : max_categories = 20.
Proof. reflexivity. Qed.
Print Assumptions C07_max_categories_pinned.

Theorem C07_disc_min_attained : forall c, well_formed c ->
  match d_min c with
  | [] => has_rows c = false \/ is_str c = true \/ non_nulls c = []
  | [CMin (Some b)] => b_value b = b_fuzzed b /\ In (b_value b) (non_nulls c) /\
                       forall v, In v (non_nulls c) -> vleb (b_value b) v = true
  | _ => False
  end.
Proof.
  intros c Hw. unfold d_min. pose proof (col_min_least c Hw) as Hm.
  destruct (has_rows c); simpl; [|auto]. destruct (is_str c); simpl; [auto|].
  destruct (col_min c) as [m|]; simpl; [|auto]. destruct Hm. auto.
Qed.
Print Assumptions C07_disc_min_attained.

Theorem C07_disc_max_attained : forall c, well_formed c ->
  match d_max c with
  | [] => has_rows c = false \/ is_str c = true \/ non_nulls c = []
  | [CMax (Some b)] => b_value b = b_fuzzed b /\ In (b_value b) (non_nulls c) /\
                       forall v, In v (non_nulls c) -> vleb v (b_value b) = true
  | _ => False
  end.
Proof.
  intros c Hw. unfold d_max. pose proof (col_max_greatest c Hw) as Hm.
  destruct (has_rows c); simpl; [|auto]. destruct (is_str c); simpl; [auto|].
  destruct (col_max c) as [m|]; simpl; [|auto]. destruct Hm. auto.
Qed.
Print Assumptions C07_disc_max_attained.

Theorem C07_disc_lengths : forall c,
  match d_min_length c with
  | [] => has_rows c = false \/ is_str c = false \/ non_nulls c = []
  | [CMinLen (Some m)] => (exists v, In v (non_nulls c) /\ str_len v = m) /\
                          forall v, In v (non_nulls c) -> m <= str_len v
  | _ => False
  end /\
  match d_max_length c with
  | [] => has_rows c = false \/ is_str c = false \/ non_nulls c = []
  | [CMaxLen (Some m)] => (exists v, In v (non_nulls c) /\ str_len v = m) /\
                          forall v, In v (non_nulls c) -> str_len v <= m
  | _ => False
  end.
Proof.
  intro c. unfold d_min_length, d_max_length, lengths.
  destruct (has_rows c); simpl; [|auto]. destruct (is_str c); simpl; [|auto].
  pose proof (zmin_list_least (map str_len (non_nulls c))) as Hm.
  pose proof (zmax_list_greatest (map str_len (non_nulls c))) as HM.
  split.
  - destruct (zmin_list _); [exact (least_map _ _ _ _ Hm)|]. right. right. exact (map_eq_nil _ _ Hm).
  - destruct (zmax_list _); [exact (least_map _ _ _ _ HM)|]. right. right. exact (map_eq_nil _ _ HM).
Qed.
Print Assumptions C07_disc_lengths.

Theorem C07_disc_sign_holds : forall c s, well_formed c -> numeric c ->
  In (CSign (Some s)) (d_sign c) -> forall v, In v (non_nulls c) -> sat_sign s v = true.
Proof.
  intros c s Hw Hn Hin. destruct (d_sign_inv _ _ Hin) as (m & M & s0 & [= <-] & Em & EM & Es & _).
  destruct (col_extremes c m M Hw Em EM) as [Hm HM].
  apply (sign_ok_iff s m M _ Hm HM). apply (discover_sign_inv _ _ _ Es).
Qed.
Print Assumptions C07_disc_sign_holds.

Theorem C07_disc_sign_strongest : forall c s s', well_formed c -> numeric c ->
  In (CSign (Some s)) (d_sign c) -> stronger s' s = true ->
  exists v, In v (non_nulls c) /\ sat_sign s' v = false.
Proof.
  intros c s s' Hw Hn Hin Hst. destruct (d_sign_inv _ _ Hin) as (m & M & s0 & [= <-] & Em & EM & Es & _).
  destruct (col_extremes c m M Hw Em EM) as [[Hm _] [HM _]].
  apply (sign_ok_false s' m M _ Hm HM). apply (discover_sign_inv _ _ _ Es). exact Hst.
Qed.
Print Assumptions C07_disc_sign_strongest.

Theorem C07_disc_max_nulls : forall c,
  d_max_nulls c = if has_rows c && (Z.eqb (null_count c) 0 || Z.eqb (null_count c) 1)
                  then [CMaxNulls (Some (null_count c))] else [].
Proof.
  intro c. unfold d_max_nulls. rewrite (ltb_2_cases (null_count c)); [reflexivity|apply Nat2Z.is_nonneg].
Qed.
Print Assumptions C07_disc_max_nulls.

Theorem C07_disc_no_duplicates_iff : forall c,
  d_no_duplicates c = [CNoDup (Some true)] <->
  has_rows c = true /\ counts_distinct (c_type c) = true /\
  (1 < Z.of_nat (length (non_nulls c))) /\ NoDupV (non_nulls c).
Proof. exact disc_no_duplicates_iff_proof. Qed.
Print Assumptions C07_disc_no_duplicates_iff.

(* allowed_values: what is listed is exactly the set of distinct non-null strings, each once, between 1 and
   MAX_CATEGORIES of them *)
Theorem C07_disc_allowed_values_tight : forall c k, all_strings (non_nulls c) -> In k (d_allowed c) ->
  exists vs, k = CAllowed (Some vs) /\ (forall s, In s vs <-> In (VStr s) (non_nulls c)) /\ NoDup vs /\
             1 <= Z.of_nat (length vs) <= max_categories.
Proof.
  intros c k Hs Hin. apply in_if_one in Hin as [G ->]. destruct (uniques_exact c Hs) as [H1 H2].
  exists (uniques c). repeat split; try assumption; try apply H1; rewrite uniques_length.
  - apply andb_true_iff in G as [_ G]. apply (Z.le_succ_l 0), Z.ltb_lt, G.
  - apply andb_true_iff in G as [G _]. apply andb_true_iff in G as [_ G]. apply Z.leb_le, G.
Qed.
Print Assumptions C07_disc_allowed_values_tight.

Theorem C07_disc_nothing_for_empty : forall c rex, c_cells c = [] -> c_type c <> TOther ->
  exists t, discover c rex = Some ([CType (Some [t])] ++ d_rex c rex) /\ t = c_type c.
Proof.
  intros c rex He Ht. unfold discover, d_min, d_max, d_min_length, d_max_length, d_sign, d_max_nulls,
    d_no_duplicates, d_allowed, has_rows, nrecords. rewrite He. simpl.
  destruct (c_type c) eqn:E; try congruence; eexists; split; reflexivity.
Qed.
Print Assumptions C07_disc_nothing_for_empty.

Example C07_example :
  discover {| c_type := TInt; c_cells := [Some (VNum 3); None; Some (VNum 0); Some (VNum 3)] |} None =
  Some [CType (Some [TInt]); CMin (Some (exact_bound (VNum 0))); CMax (Some (exact_bound (VNum 3)));
        CSign (Some SNonNegative); CMaxNulls (Some 1)].
Proof. vm_compute. reflexivity. Qed.
