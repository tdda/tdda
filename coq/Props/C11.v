(* C11 - gentest: for a repeatable command the generated test exists, compiles and passes.
   Theorems about the logic core (Gentest/DateLike.v, Quote.v, Script.v; lemmas in QuoteProofs.v and ScriptProofs.v);
   process execution and the file system are exercised by the harness. *)
From Coq Require Import ZArith List Bool.
From Tdda Require Import Base.Sexp Gentest.DateLike Gentest.Quote Gentest.QuoteProofs
  Gentest.Script Gentest.ScriptProofs.
Import ListNotations.
Open Scope Z_scope.

(* "whatever text the outputs contain": the date detector gives a verdict for every triple of numbers the regular
   expression can deliver (no ValueError path is left: poss_datetime is None where datetime() would raise), and the
   verdict is exact: one of the three readings is a real date in the plausible range *)
Theorem C11_is_date_like_total : forall range n1 n2 n3,
  is_date_like_num range n1 n2 n3 = true <-> some_reading range n1 n2 n3.
Proof. exact is_date_like_num_spec_proof. Qed.
Print Assumptions C11_is_date_like_total.

(* "a syntactically valid script": an ignore-pattern that ends with '$' and contains no line break is written as
   a raw literal that the Python lexer reads back as exactly that pattern *)
Theorem C11_quote_raw_roundtrip : forall s0,
  let s := s0 ++ [36] in
  no_nl s ->
  match quote_raw s with
  | QRaw t => forall rest, lex_raw_literal (t ++ rest) = Some (s, rest)
  | QRepr => True
  end.
Proof. intro s0. apply quote_raw_roundtrip_last; discriminate. Qed.
Print Assumptions C11_quote_raw_roundtrip.

(* no two generated tests share a name (a later def would silently replace an earlier one), and none takes the
   name of a fixed test (no_exception, exit_code, stdout, stderr) *)
Theorem C11_test_names_distinct : forall idc basenames ns,
  test_names idc reserved_names 1 basenames = Some ns -> NoDup (reserved_names ++ ns).
Proof.
  intros idc bs ns H. eapply test_names_distinct; [|exact H].
  repeat constructor; cbn; intuition discriminate.
Qed.
Print Assumptions C11_test_names_distinct.

(* ... and naming never gives up: for every list of output files a name is found for each (the re-qualification loop
   of test_name needs at most as many rounds as there are names already taken - decimal rendering is injective, so the
   candidates are distinct and cannot all be taken) *)
Theorem C11_test_names_total : forall idc basenames,
  exists ns, test_names idc reserved_names 1 basenames = Some ns /\ length ns = length basenames.
Proof. intros idc bs. apply test_names_total. discriminate. Qed.
Print Assumptions C11_test_names_total.

(* "that script passes when run straight afterwards": when the command behaves as it did, every generated
   check passes - for every set of derived ignore-substrings, every text and every file content *)
Theorem C11_unchanged_passes : forall cs ce subs ref,
  NoDup (map (fun f : str * bool * option str => fst (fst f)) (out_files ref)) ->
  (forall f, In f (out_files ref) -> snd f <> None) ->
  forall c ok, In (c, ok) (run_generated cs ce subs ref ref) -> ok = true.
Proof.
  intros cs ce subs ref Hnd Hp c ok Hin.
  destruct (only_exit_can_fail cs ce subs ref ref eq_refl eq_refl eq_refl Hnd Hp c ok Hin) as [H|[_ ->]];
    [exact H|apply Z.eqb_refl].
Qed.
Print Assumptions C11_unchanged_passes.

(* generation deletes only plain files inside the reference directory and the previous script *)
Theorem C11_deletes_only_own : forall refdir script existing f,
  In f (deleted_by_generation refdir script existing) ->
  (is_prefix refdir f = true /\ length f <> length refdir) \/ f = script.
Proof.
  intros refdir script existing f H. unfold deleted_by_generation in H. apply filter_In in H as [_ H].
  apply orb_true_iff in H as [H|H]; apply andb_true_iff in H as [H1 H2].
  - left. split; [exact H1|]. apply negb_true_iff in H2. apply Nat.eqb_neq in H2. exact H2.
  - right. apply is_prefix_same_length; [exact H2|apply Nat.eqb_eq, H1].
Qed.
Print Assumptions C11_deletes_only_own.

Example C11_examples :
  is_date_like_num None 10 2 0 = false /\ is_date_like_num None 31 2 2020 = false /\ is_date_like_num None 29 2 2020 = true /\
  quote_raw [94; 97; 39; 36] = QRaw [114; 34; 94; 97; 39; 36; 34] /\
  test_names (fun c => Z.leb 97 c && Z.leb c 122 || Z.eqb c 95 || Z.leb 48 c && Z.leb c 57) reserved_names 1
             [[97;32;98;50]; [97;45;98]; [97;95;98]; [115;116;100;111;117;116]]
    = Some [[97;95;98;50]; [97;95;98]; [97;95;98;51]; [115;116;100;111;117;116;52]].
Proof. vm_compute. repeat split. Qed.
