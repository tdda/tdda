(* C10 - references are rewritten only on request; a regenerated reference passes.
   Statements about one step of the assertion state machine (RefTest/Regen.v); lemmas in RefTest/RegenProofs.v. *)
From Coq Require Import ZArith List Bool.
From Tdda Require Import Base.Str RefTest.Argv RefTest.CheckStrings RefTest.CheckStringsProofs
  RefTest.ReconProofs RefTest.Regen RefTest.RegenProofs.
Import ListNotations.
Open Scope Z_scope.

(* an assertion in normal mode never creates, modifies or deletes any file, whatever its outcome
   (temporary artefacts are C15's subject and live in a separate component) *)
Theorem C10_normal_mode_preserves_fs : forall s x,
  match op_kind x with Some k => should_regenerate (st_table s) k = false | None => True end ->
  st_fs (fst (step s x)) = st_fs s.
Proof.
  intros s x Hn. pose proof (step_cases s x) as H.
  destruct (op_kind x) as [k|], (op_ref x) as [r|]; try exact (proj1 H). rewrite H, Hn. reflexivity.
Qed.
Print Assumptions C10_normal_mode_preserves_fs.

(* in any state of any history: files change only in a step that regenerates, and then only the
   step's own reference file *)
Theorem C10_only_regeneration_writes : forall s x,
  (snd (step s x) <> Regenerated -> st_fs (fst (step s x)) = st_fs s) /\
  (forall p, match op_ref x with Some r => str_eqb p r = false | None => True end ->
             fread p (st_fs (fst (step s x))) = fread p (st_fs s)).
Proof. exact only_regeneration_writes_proof. Qed.
Print Assumptions C10_only_regeneration_writes.

Theorem C10_assertions_keep_table : forall s x,
  op_kind x <> None -> st_table (fst (step s x)) = st_table s.
Proof. exact assertions_keep_table_proof. Qed.
Print Assumptions C10_assertions_keep_table.

(* after argv parsing from an empty table a kind regenerates iff it was named or all kinds were
   requested (ar_kinds = the kinds after -w/--w/--write split at commas, plus None for -W etc.) *)
Theorem C10_regen_only_selected : forall argv r k,
  set_flags argv = Some r ->
  should_regenerate (st_table (fst (step {| st_table := []; st_quiet := false; st_fs := [] |} (ParseArgv argv)))) k =
  (existsb (kind_eqb k) (ar_kinds r) || existsb (kind_eqb None) (ar_kinds r)).
Proof.
  intros argv r k H. cbn [step]. rewrite H. cbn [fst st_table].
  destruct (kinds_fold_spec (ar_kinds r) []) as [H1 H2]; [intros k1 b1 E; discriminate|].
  rewrite should_regenerate_all_true, !H2 by exact H1. cbn [is_set tlookup]. rewrite !orb_false_r. reflexivity.
Qed.
Print Assumptions C10_regen_only_selected.

(* regenerate, then (after any history that leaves that reference alone) the same assertion on the
   same actual in normal mode passes - under every option set and pattern oracle *)
Theorem C10_regen_string_then_passes : forall s k o orc a r s2 o2 orc2,
  should_regenerate (st_table s) k = true ->
  fread r (st_fs s2) = fread r (st_fs (fst (step s (AssertString k o orc a r)))) ->
  should_regenerate (st_table s2) k = false ->
  snd (step s2 (AssertString k o2 orc2 a r)) = Passed.
Proof.
  intros s k o orc a r s2 o2 orc2 H1 Hf H2. rewrite (regen_writes s (AssertString k o orc a r) k r a eq_refl eq_refl H1 eq_refl) in Hf.
  cbn [step]. rewrite H2, Hf. rewrite string_vs_own_file_passes_proof. reflexivity.
Qed.
Print Assumptions C10_regen_string_then_passes.

Theorem C10_regen_textfile_then_passes : forall s k o orc ap r c s2 o2 orc2,
  should_regenerate (st_table s) k = true ->
  fread ap (st_fs s) = Some c ->
  fread r (st_fs s2) = fread r (st_fs (fst (step s (AssertTextFile k o orc ap r)))) ->
  fread ap (st_fs s2) = Some c ->
  should_regenerate (st_table s2) k = false ->
  snd (step s2 (AssertTextFile k o2 orc2 ap r)) = Passed.
Proof.
  intros s k o orc ap r c s2 o2 orc2 H1 Ha Hf Ha2 H2.
  rewrite (regen_writes s (AssertTextFile k o orc ap r) k r (univ_nl c) eq_refl eq_refl H1) in Hf by (cbn [regen_content]; rewrite Ha; reflexivity).
  cbn [step]. rewrite H2, Hf, Ha2. unfold check_file.
  rewrite (splitlines_univ_nl_proof (univ_nl c)), refl_passes_proof. reflexivity.
Qed.
Print Assumptions C10_regen_textfile_then_passes.

Theorem C10_regen_binary_then_passes : forall s k ap r c s2,
  should_regenerate (st_table s) k = true ->
  fread ap (st_fs s) = Some c ->
  fread r (st_fs s2) = fread r (st_fs (fst (step s (AssertBinaryFile k ap r)))) ->
  fread ap (st_fs s2) = Some c ->
  should_regenerate (st_table s2) k = false ->
  snd (step s2 (AssertBinaryFile k ap r)) = Passed.
Proof.
  intros s k ap r c s2 H1 Ha Hf Ha2 H2. rewrite (regen_writes s (AssertBinaryFile k ap r) k r c eq_refl eq_refl H1 Ha) in Hf.
  cbn [step]. rewrite H2, Hf, Ha2, check_binary_refl. reflexivity.
Qed.
Print Assumptions C10_regen_binary_then_passes.

(* every accepted spelling, concretely: --write table never regenerates graph; -W regenerates all *)
Example C10_spellings :
  let t argv := st_table (fst (step {| st_table := []; st_quiet := false; st_fs := [] |} (ParseArgv argv))) in
  let prog := [112] in let table := [116;97;98;108;101] in let graph := [103;114;97;112;104] in
  forallb (fun w => should_regenerate (t [prog; w; table]) (Some table) &&
                    negb (should_regenerate (t [prog; w; table]) (Some graph)) &&
                    negb (should_regenerate (t [prog; w; table]) None))
          [[45;119]; [45;45;119]; [45;45;119;114;105;116;101]] = true /\
  forallb (fun w => should_regenerate (t [prog; w]) (Some table) && should_regenerate (t [prog; w]) (Some graph))
          [[45;87]; [45;45;87]; [45;45;119;114;105;116;101;45;97;108;108]; [45;49;87]] = true.
Proof. vm_compute. split; reflexivity. Qed.
