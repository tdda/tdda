(* C04 - text comparison passes exactly when texts agree modulo declared exclusions.
   The statements about check_strings (RefTest/CheckStrings.v); the general theorem (pass <-> Spec, whatever the
   line counts) and its lemmas are in RefTest/CheckStringsProofs.v. *)
From Coq Require Import ZArith List.
From Tdda Require Import Generated.Consts RefTest.CheckStrings RefTest.CheckStringsProofs.
Import ListNotations.

(* T: the line boundaries and whitespace set are those of the running interpreter *)
Theorem C04_tables_pinned :
  py_linebreaks = [10; 11; 12; 13; 28; 29; 30; 133; 8232; 8233]%Z /\
  py_isspace_ranges = [(9, 13); (28, 32); (133, 133); (160, 160); (5760, 5760); (8192, 8202);
                       (8232, 8233); (8239, 8239); (8287, 8287); (12288, 12288)]%Z.
Proof. split; reflexivity. Qed.
Print Assumptions C04_tables_pinned.

(* The rule of the property.  prep = drop one final empty line, then drop the lines containing a
   remove-substring; a pair is unexcused when it differs after the requested stripping, the reference
   line holds no ignore-substring and the pattern recursion does not excuse it.  For every option
   record, every pattern oracle and all line lists on which the recursion terminates:
   PASS  <->  same number of lines and (no unexcused pair, or at most max_permutation_cases
              unexcused pairs whose two sides are permutations of each other). *)
Theorem C04_check_strings_spec : forall o orc A E,
  no_divergence o orc A E ->
  length (prep o A) = length (prep o E) ->
  (r_verdict (check_strings o orc A E) = Pass <-> Spec o orc A E).
Proof. intros o orc A E Hnd _. exact (check_strings_pass_iff o orc A E Hnd). Qed.
Print Assumptions C04_check_strings_spec.

Theorem C04_length_mismatch_fails : forall o orc A E,
  length (prep o A) <> length (prep o E) ->
  r_verdict (check_strings o orc A E) <> Pass.
Proof. exact length_mismatch_fails_proof. Qed.
Print Assumptions C04_length_mismatch_fails.

(* identical content passes under every option combination and every pattern oracle *)
Theorem C04_refl_passes : forall o orc A, r_verdict (check_strings o orc A A) = Pass.
Proof. exact refl_passes_proof. Qed.
Print Assumptions C04_refl_passes.

(* any difference not excused by an option fails *)
Theorem C04_unexcused_fails : forall o orc A E,
  no_divergence o orc A E -> o_maxperm o = O -> U o orc A E <> [] ->
  r_verdict (check_strings o orc A E) <> Pass.
Proof. intros o orc A E Hnd Hm HU Hv. apply (strict_pass_iff o orc A E Hnd Hm) in Hv. tauto. Qed.
Print Assumptions C04_unexcused_fails.

(* with no options at all: pass iff the line lists are equal (up to one final empty line) *)
Theorem C04_plain_sensitive : forall o orc A E, plain o ->
  (r_verdict (check_strings o orc A E) = Pass <-> drop_last_empty A = drop_last_empty E).
Proof. exact plain_sensitive_proof. Qed.
Print Assumptions C04_plain_sensitive.

(* entry points: text-mode reading (universal newlines) does not change the line list *)
Theorem C04_splitlines_univ_nl : forall s, splitlines (univ_nl s) = splitlines s.
Proof. exact splitlines_univ_nl_proof. Qed.
Print Assumptions C04_splitlines_univ_nl.

Theorem C04_string_vs_own_file_passes : forall o orc s,
  r_verdict (check_string_against_file o orc s s) = Pass.
Proof. exact string_vs_own_file_passes_proof. Qed.
Print Assumptions C04_string_vs_own_file_passes.

Theorem C04_file_vs_copy_passes : forall o orc s, r_verdict (check_file o orc s s) = Pass.
Proof. exact file_vs_copy_passes_proof. Qed.
Print Assumptions C04_file_vs_copy_passes.

(* non-vacuity: a concrete pair that meets the hypotheses of the spec theorem, with a real
   difference, an excused pair (oracle: pattern 0 = \d+ on "a 12"/"a 34") and a permutation *)
Example C04_spec_inhabited :
  let o := {| o_lstrip := false; o_rstrip := true; o_isub := []; o_npat := 1; o_rem := [[111]];
              o_maxperm := 2; o_preproc := false; o_apath := false |} in
  let orc := [ (O, [97;32;51;52], Some (3%nat, [97;32], [])); (O, [97;32;49;50], Some (3%nat, [97;32], []));
               (O, [97;32], None); (O, [], None); (O, [120], None); (O, [121], None) ] in
  let A := [[97;32;49;50]; [120]; [121]; [111]] in
  let E := [[97;32;51;52]; [121]; [120]] in
  no_divergence o orc A E /\ length (prep o A) = length (prep o E) /\
  r_verdict (check_strings o orc A E) = Pass /\
  r_verdict (check_strings {| o_lstrip := false; o_rstrip := true; o_isub := []; o_npat := 1;
                              o_rem := [[111]]; o_maxperm := 1; o_preproc := false; o_apath := false |}
                           orc A E) = Fail.
Proof. vm_compute. repeat split. Qed.
