(* C08 - database discovery is sound and verification notices violating rows. *)
From Coq Require Import ZArith List Bool.
From Tdda Require Import Constraints.Model Constraints.ModelProofs Constraints.SqlText
  Constraints.ClosureDetect.
Import ListNotations.
Open Scope Z_scope.

(* soundness: the shared discovery/verification logic is closed (same theorem as C01, any calculator
   that returns the aggregates of Constraints/Model.v, which the correspondence checks for SQLite) *)
Theorem C08_db_closure : forall p c rex ks, well_typed c ->
  (forall oks, rex = Some oks -> forallb (fun b => b) oks = true) ->
  discover c rex = Some ks -> forall k, In k ks -> verify p (Some c) k = true.
Proof. exact closure_proof. Qed.
Print Assumptions C08_db_closure.

(* the expressions embedded in the REGEXP statement survive SQL literal quoting, whatever they contain *)
Theorem C08_sql_literal_roundtrip : forall s rest,
  match rest with c :: _ => Z.eqb c q = false | [] => True end ->
  match sql_literal s ++ rest with
  | c :: body => Z.eqb c q = true /\ sql_lex_body (S (length body)) body = Some (s, rest)
  | [] => False
  end.
Proof.
  intros s rest Hr. unfold sql_literal. cbn [app]. split; [reflexivity|].
  rewrite <- app_assoc. cbn [app]. apply sql_lex_escape; [|exact Hr].
  apply Nat.lt_succ_r. rewrite app_length. apply Nat.le_add_r.
Qed.
Print Assumptions C08_sql_literal_roundtrip.

(* one added row that breaks a constraint makes verification report it *)
Theorem C08_perturb_min : forall p c b v,
  well_formed (add_row c (Some v)) -> sat_min b v = false ->
  verify p (Some (add_row c (Some v))) (CMin (Some b)) = false.
Proof.
  intros p c b v Hw Hs. apply not_true_is_false. intro E.
  destruct (proj1 (verify_min_spec_proof p _ b Hw) E v (In_add_row c v)) as [_ H]. congruence.
Qed.
Print Assumptions C08_perturb_min.

Theorem C08_perturb_max : forall p c b v,
  well_formed (add_row c (Some v)) -> sat_max b v = false ->
  verify p (Some (add_row c (Some v))) (CMax (Some b)) = false.
Proof.
  intros p c b v Hw Hs. apply not_true_is_false. intro E.
  destruct (proj1 (verify_max_spec_proof p _ b Hw) E v (In_add_row c v)) as [_ H]. congruence.
Qed.
Print Assumptions C08_perturb_max.

Theorem C08_perturb_sign : forall p c s v,
  well_formed (add_row c (Some v)) -> numeric (add_row c (Some v)) -> sat_sign s v = false ->
  verify p (Some (add_row c (Some v))) (CSign (Some s)) = false.
Proof.
  intros p c s v Hw Hn Hs. apply not_true_is_false. intro E.
  rewrite (proj1 (verify_sign_spec_proof p _ s Hw Hn) E v (In_add_row c v)) in Hs. discriminate.
Qed.
Print Assumptions C08_perturb_sign.

Theorem C08_perturb_length : forall p c n v, c_type c = TString ->
  (str_len v < n -> verify p (Some (add_row c (Some v))) (CMinLen (Some n)) = false) /\
  (n < str_len v -> verify p (Some (add_row c (Some v))) (CMaxLen (Some n)) = false).
Proof.
  intros p c n v Ht. split; intro Hl; apply not_true_is_false; intro E.
  - apply (Z.lt_irrefl n), (Z.le_lt_trans _ (str_len v)); [|exact Hl].
    exact (proj1 (verify_min_length_spec_proof p (add_row c (Some v)) n Ht) E v (In_add_row c v)).
  - apply (Z.lt_irrefl n), (Z.lt_le_trans _ (str_len v)); [exact Hl|].
    exact (proj1 (verify_max_length_spec_proof p (add_row c (Some v)) n Ht) E v (In_add_row c v)).
Qed.
Print Assumptions C08_perturb_length.

Theorem C08_perturb_null : forall p c,
  verify p (Some (add_row c None)) (CMaxNulls (Some (null_count c))) = false.
Proof. intros p c. cbn [verify]. rewrite null_count_add_null. apply Z.leb_gt, Z.lt_succ_diag_r. Qed.
Print Assumptions C08_perturb_null.

Theorem C08_perturb_duplicate : forall p c v, In v (non_nulls c) ->
  verify p (Some (add_row c (Some v))) (CNoDup (Some true)) = false.
Proof.
  intros p c v Hin. apply not_true_is_false. intro E. apply verify_no_duplicates_spec_proof in E.
  rewrite non_nulls_add_some in E. exact (NoDupV_app_last _ _ E Hin).
Qed.
Print Assumptions C08_perturb_duplicate.

(* table level: a whole table (any number of columns) verified with the constraints discovered from it counts no
   failure; and whenever some row breaks some constraint of some column (the perturbation theorems above give
   verify = false for that constraint) the overall failure count of the verification is positive *)
Theorem C08_db_table_no_failures : forall p fields, Forall self_discovered fields ->
  v_failures (verify_dataset p (as_fields fields)) = 0.
Proof. intros p fields H. exact (proj1 (closure_dataset_proof p fields H)). Qed.
Print Assumptions C08_db_table_no_failures.

Theorem C08_violation_is_counted : forall p (fs : list (option column * list constr)) f k,
  In f fs -> In k (snd f) -> verify p (fst f) k = false -> 0 < v_failures (verify_dataset p fs).
Proof. exact one_failure_is_counted_proof. Qed.
Print Assumptions C08_violation_is_counted.
