(* C05 - DataFrame comparison passes exactly when the checked structure and values agree.
   Statements are about check_dataframe (RefTest/FrameCmp.v), the model of
   PandasComparison.check_dataframe, for all frames, option records and type-matching levels.
   Cells are tokens that are equal exactly when pandas' eq holds after rounding (an oracle).
   The specification (structure_ok, values_ok) and the lemmas are in RefTest/FrameCmpProofs.v. *)
From Coq Require Import ZArith List Bool.
From Tdda Require Import Base.Str RefTest.FrameCmp RefTest.FrameCmpProofs.
Import ListNotations.
Open Scope Z_scope.

(* when every selected column is a reference column (otherwise the real code raises KeyError, and so does
   the model), the comparison returns a verdict - never an internal error - and that verdict is "same"
   exactly when: every type-checked column exists with a matching type at the requested level, no checked
   extra column, the relative order of the order-checked columns agrees, the row counts agree, and every
   value-checked column exists and agrees cell by cell (nulls equal to nulls) *)
Theorem C05_check_dataframe_spec : forall isd o df ref,
  selections_in_ref o ref ->
  exists v, check_dataframe isd o df ref = Done v /\
    (v_same v = true <-> structure_ok isd o df ref /\ nrows df = nrows ref /\ values_ok o df ref).
Proof. exact check_dataframe_spec_proof. Qed.
Print Assumptions C05_check_dataframe_spec.

(* a copy of a frame always passes *)
Theorem C05_copy_passes : forall isd o df,
  flag_in (d_types o) df -> flag_in (d_data o) df ->
  exists v, check_dataframe isd o df df = Done v /\ v_same v = true.
Proof. exact copy_passes_proof. Qed.
Print Assumptions C05_copy_passes.

(* a renamed/missing, retyped, extra or moved column, a different row count or one differing checked value
   always gives the verdict "different" (an assertion failure), never an internal error *)
Theorem C05_difference_fails : forall isd o df ref,
  selections_in_ref o ref ->
  ( (exists c, In c (resolve (d_types o) ref) /\ has df c = false) \/
    (exists c a r, In c (resolve (d_types o) ref) /\ lookup df c = Some a /\ lookup ref c = Some r /\
                   types_match isd (d_level o) (eff_dtype a) (eff_dtype r) = false) \/
    (exists c, In c (resolve (d_extra o) df) /\ has df c = true /\ has ref c = false) \/
    (d_order o <> FNone /\
     filter (fun c => mem_str c (resolve (d_order o) ref) && has ref c) (names df) <>
     filter (fun c => mem_str c (resolve (d_order o) ref) && has df c) (names ref)) \/
    nrows df <> nrows ref \/
    (exists c a r, In c (resolve (d_data o) ref) /\ lookup df c = Some a /\ lookup ref c = Some r /\
                   ~ cells_agree (c_cells a) (c_cells r)) ) ->
  exists v, check_dataframe isd o df ref = Done v /\ v_same v = false.
Proof. exact difference_fails_proof. Qed.
Print Assumptions C05_difference_fails.

(* non-vacuity: two frames differing in one cell of the second column; selecting only the first passes *)
Example C05_example :
  let a := [ {| c_name := [97]; c_dtype := [105]; c_cells := [Some 1; None] |};
             {| c_name := [98]; c_dtype := [102]; c_cells := [Some 5; Some 6] |} ] in
  let r := [ {| c_name := [97]; c_dtype := [105]; c_cells := [Some 1; None] |};
             {| c_name := [98]; c_dtype := [102]; c_cells := [Some 5; Some 7] |} ] in
  let all := {| d_data := FAll; d_types := FAll; d_order := FAll; d_extra := FAll; d_level := 0 |} in
  let only_a := {| d_data := FList [[97]]; d_types := FAll; d_order := FAll; d_extra := FAll; d_level := 0 |} in
  (match check_dataframe is_09_ascii all a r with Done v => v_same v = false /\ v_ndiff v = 1 | KeyErr => False end) /\
  (match check_dataframe is_09_ascii only_a a r with Done v => v_same v = true | KeyErr => False end) /\
  selections_in_ref only_a r.
Proof.
  split; [vm_compute; split; reflexivity|]. split; [vm_compute; reflexivity|].
  split; intros c Hc; cbn in Hc; repeat (destruct Hc as [<-|Hc]; [reflexivity|]); destruct Hc.
Qed.
