(* C15 - failed text/binary assertions leave faithful artefacts; passing ones none.
   Statements about reconstruct (RefTest/CheckStrings.v), check_binary and written (RefTest/Artefacts.v); lemmas in
   RefTest/ReconProofs.v. *)
From Coq Require Import ZArith List Bool.
From Tdda Require Import RefTest.CheckStrings RefTest.CheckStringsProofs RefTest.Artefacts RefTest.ReconProofs.
Import ListNotations.
Open Scope Z_scope.

(* For all pairs of byte strings: equal files report nothing; otherwise the reported lengths are
   exact and the reported offset is the first differing byte (= length of the common prefix; = the
   shorter length when one file is a prefix of the other). *)
Theorem C15_binary_offset_exact : forall actual expected,
  match check_binary actual expected with
  | None => actual = expected
  | Some b =>
    actual <> expected /\
    bi_actual_len b = length actual /\ bi_expected_len b = length expected /\
    firstn (bi_offset b) actual = firstn (bi_offset b) expected /\
    (bi_offset b <= Nat.min (length actual) (length expected))%nat /\
    ((bi_offset b < length actual)%nat -> (bi_offset b < length expected)%nat ->
     nth (bi_offset b) actual 0 <> nth (bi_offset b) expected 0)
  end.
Proof. exact binary_offset_exact_proof. Qed.
Print Assumptions C15_binary_offset_exact.

Theorem C15_pass_writes_nothing : forall c, fc_failed c = false ->
  written c = [] /\ names_raw_pair c = false /\ names_post_pair c = false.
Proof. intros c H. unfold written, names_raw_pair, names_post_pair. rewrite H. auto. Qed.
Print Assumptions C15_pass_writes_nothing.

Theorem C15_named_files_exist : forall c,
  (names_raw_pair c = true -> (fc_apath c = true \/ In ActualRaw (written c)) /\
                              (fc_epath c = true \/ In ExpectedRaw (written c))) /\
  (names_post_pair c = true -> In PostActual (written c) /\ In PostExpected (written c)).
Proof. exact named_files_exist_proof. Qed.
Print Assumptions C15_named_files_exist.

Theorem C15_postprocessed_written : forall c,
  fc_failed c = true -> fc_recon c = true -> fc_create c = true ->
  In PostActual (written c) /\ In PostExpected (written c) /\ names_post_pair c = true.
Proof.
  intros c H1 H2 H3. unfold names_post_pair. rewrite H1, H2, H3.
  repeat split; apply In_written; unfold is_written; rewrite H1, H2, H3; reflexivity.
Qed.
Print Assumptions C15_postprocessed_written.

Theorem C15_raw_actual_written_iff : forall c, fc_failed c = true -> fc_create c = true ->
  (In ActualRaw (written c) <-> fc_apath c = false).
Proof.
  intros c H1 H2. split; intro H.
  - apply In_written in H. unfold is_written in H. rewrite H1, H2 in H. apply negb_true_iff in H. exact H.
  - apply In_written. unfold is_written. rewrite H1, H2, H. reflexivity.
Qed.
Print Assumptions C15_raw_actual_written_iff.

(* The post-processed pair (FilesComparison.reconstruct): for every option set, pattern oracle and texts that compare
   equally many kept lines without divergence, when a reconstruction is made the two texts have the same number of
   lines and the places where they differ are, in order, exactly the unexcused differences (normalised lines) - removed
   lines and excused differences appear as one marker line that is the same on both sides. *)
Theorem C15_postprocessed_pair_differs_exactly : forall o orc A E r,
  no_divergence o orc A E ->
  length (prep o A) = length (prep o E) ->
  r_recon (check_strings o orc A E) = Some r ->
  length (fst r) = length (snd r) /\
  diffpairs r = map (fun p => (norm o (fst p), norm o (snd p))) (U o orc A E).
Proof. exact recon_shows_unexcused. Qed.
Print Assumptions C15_postprocessed_pair_differs_exactly.

(* ... and at the level of reconstruct itself, for ANY removal masks and ignore lists *)
Theorem C15_reconstruct_differs_exactly : forall arem erem aign eign fuel a e ia ie,
  (length a + length e < fuel)%nat ->
  length (kept_lines arem a ia) = length (kept_lines erem e ie) ->
  let r := reconstruct fuel a e ia ie arem erem aign eign in
  length (fst r) = length (snd r) /\
  diffpairs r = map (fun q => (snd (fst q), snd (snd q)))
                    (filter (shown aign eign) (combine (kept_lines arem a ia) (kept_lines erem e ie))).
Proof. exact reconstruct_differs_exactly. Qed.
Print Assumptions C15_reconstruct_differs_exactly.

(* When the two sides keep DIFFERENT numbers of lines the statement is false of the faithful model (and of the code:
   known finding c15-postprocessed-pair-different-line-counts): with ignore_substrings ["A"] and the texts of
   ReconProofs.c15_A / c15_E the assertion fails, no pattern diverges, a post-processed pair is written, and that pair
   differs on a pair of lines whose difference is excused. *)
Theorem C15_different_line_counts_refuted :
  exists o orc A E r,
    existsb (diverging o orc) (combine (prep o A) (prep o E)) = false /\
    length (prep o A) <> length (prep o E) /\
    r_verdict (check_strings o orc A E) = Fail /\
    r_recon (check_strings o orc A E) = Some r /\
    exists p, In p (diffpairs r) /\ differs o p = true /\ excused o orc p = true.
Proof. exact different_line_counts_refuted_proof. Qed.
Print Assumptions C15_different_line_counts_refuted.

Example C15_binary_example :
  check_binary [1;2;3;4] [1;2;9;4;5] =
  Some {| bi_offset := 2; bi_actual_len := 4; bi_expected_len := 5 |}.
Proof. vm_compute. reflexivity. Qed.
