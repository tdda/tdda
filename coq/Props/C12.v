(* C12 - gentest: the generated test fails when the command behaves differently, each change being reported by
   the check for that stream, file or status, and keeps passing when nothing has changed.
   Statements about run_generated (Gentest/Script.v); lemmas in Gentest/ScriptProofs.v. *)
From Coq Require Import ZArith List.
From Tdda Require Import Base.Sexp RefTest.CheckStrings Gentest.Script Gentest.ScriptProofs.
Import ListNotations.
Open Scope Z_scope.

Theorem C12_changed_exit_fails : forall cs ce subs ref new,
  out_exit new <> out_exit ref -> In (CExit, false) (run_generated cs ce subs ref new).
Proof. exact changed_exit_fails_proof. Qed.
Print Assumptions C12_changed_exit_fails.

(* a stream changes: a different number of lines, or some line differs from a reference line that contains none of
   the derived ignore-substrings (host, user, directory, plausible dates: the exclusions are the tool's design) *)
Theorem C12_changed_stdout_fails : forall ce subs ref new,
  text_changed (subs s_stdout) (splitlines (out_stdout new)) (splitlines (univ_nl (out_stdout ref))) ->
  In (CStdout, false) (run_generated true ce subs ref new).
Proof. exact changed_stdout_fails_proof. Qed.
Print Assumptions C12_changed_stdout_fails.

Theorem C12_changed_stderr_fails : forall cs subs ref new,
  text_changed (subs s_stderr) (splitlines (out_stderr new)) (splitlines (univ_nl (out_stderr ref))) ->
  In (CStderr, false) (run_generated cs true subs ref new).
Proof. exact changed_stderr_fails_proof. Qed.
Print Assumptions C12_changed_stderr_fails.

(* a checked file: missing, or a binary file with different bytes, or a text file with an unexcused change *)
Theorem C12_changed_file_fails : forall cs ce subs ref new f,
  In f (out_files ref) ->
  (match find_file (fst (fst f)) (out_files new) with
   | None => True
   | Some g =>
     match snd f, snd g with
     | Some rc, Some nc =>
       if snd (fst f) then text_changed (subs (fst (fst f))) (splitlines (univ_nl nc)) (splitlines (univ_nl rc))
       else nc <> rc
     | _, _ => True
     end
   end) ->
  In (CFile (fst (fst f)), false) (run_generated cs ce subs ref new).
Proof. exact changed_file_fails_proof. Qed.
Print Assumptions C12_changed_file_fails.

(* only the affected checks fail: when streams and files are as before, every check other than the exit status passes *)
Theorem C12_unaffected_checks_pass : forall cs ce subs ref new,
  out_stdout new = out_stdout ref -> out_stderr new = out_stderr ref -> out_files new = out_files ref ->
  NoDup (map (fun f : str * bool * option str => fst (fst f)) (out_files ref)) ->
  (forall f, In f (out_files ref) -> snd f <> None) ->
  forall c ok, In (c, ok) (run_generated cs ce subs ref new) -> c <> CExit -> ok = true.
Proof.
  intros cs ce subs ref new Ho He Hf Hnd Hp c ok Hin Hc.
  destruct (only_exit_can_fail cs ce subs ref new Ho He Hf Hnd Hp c ok Hin) as [H|[H _]]; [exact H|contradiction].
Qed.
Print Assumptions C12_unaffected_checks_pass.

Example C12_example :
  let ref := {| out_exit := 0; out_stdout := [97; 10; 98; 10]; out_stderr := []; out_files := [([102], false, Some [1; 2])] |} in
  let new := {| out_exit := 0; out_stdout := [97; 10; 99; 10]; out_stderr := []; out_files := [([102], false, Some [1; 2])] |} in
  text_changed [] (splitlines (out_stdout new)) (splitlines (univ_nl (out_stdout ref))) /\
  map snd (run_generated true true (fun _ => []) ref new) = [true; true; false; true; true].
Proof. split; [right; vm_compute; reflexivity|vm_compute; reflexivity]. Qed.
