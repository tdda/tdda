(* C13 - every expression rexpy returns is anchored, there are never more expressions than distinct
   examples (none for an empty input), and tagging changes only the grouping. *)
From Coq Require Import ZArith List.
From Tdda Require Import Rexpy.Pipeline Rexpy.PipelineProofs Rexpy.Sem Rexpy.OracleCheck Rexpy.RefineProofs
     Rexpy.BatchProofs Rexpy.LoopProofs Rexpy.Regex Rexpy.RegexProofs Rexpy.PruneProofs.
Import ListNotations.
Open Scope Z_scope.

(* for every run of the model: each returned expression is ^...$; there are at most as many expressions as
   stored (distinct) working examples; an input in which clean keeps nothing returns no expression *)
Theorem C13_shape : forall ct o gt mt samples items lo,
  run_extractor ct o gt mt samples items = Ok lo ->
  Forall anchored (lo_rex lo) /\
  (length (lo_rex lo) <= length (ex_strings (lo_examples lo)))%nat /\
  (ex_strings (fst (clean ct o items)) = [] -> lo_rex lo = [] /\ lo_none lo = true).
Proof. exact run_extractor_shape. Qed.
Print Assumptions C13_shape.

(* tagging: the fragments chosen by a batch extraction do not depend on the tag option ... *)
Theorem C13_fragments_tag_independent : forall ct o e stripped gt ex t merged rex,
  batch_extract ct o e stripped gt ex = Ok (merged, rex) ->
  exists rex', batch_extract ct (with_tag o t) e stripped gt ex = Ok (merged, rex') \/
               (exists err, mapM (vrle2re false (o_full_escape o) e stripped t) merged = Err err).
Proof.
  intros ct o e stripped gt ex t merged rex H. apply batch_extract_iff in H as (refined & Eref & -> & _).
  destruct (mapM (vrle2re false (o_full_escape o) e stripped t) (merge_refined refined)) as [rx'|err'] eqn:Erx'.
  - exists rx'. left. apply batch_extract_iff. exists refined. split; [exact Eref|]. split; [reflexivity|exact Erx'].
  - exists []. right. exists err'. reflexivity.
Qed.
Print Assumptions C13_fragments_tag_independent.

(* ... and a tagged fragment is exactly the untagged one inside one pair of capturing parentheses
   (constant fragments are never wrapped) *)
Theorem C13_tag_only_wraps : forall out full e f r,
  fragment2re out full e false f = Ok r ->
  fragment2re out full e true f = Ok (if f_fixed f then r else capture_group r).
Proof.
  unfold fragment2re. intros out full e f r H. apply bind_ok in H as [regex [-> H]]. injection H as <-.
  cbn [bind andb negb]. destruct (f_fixed f); reflexivity.
Qed.
Print Assumptions C13_tag_only_wraps.

(* every refined pattern of a batch extraction matches at least one of the working examples (at the level of what
   its fragments denote; hypotheses as for C03_batch_covers, checked executably on every real run) *)
Theorem C13_each_matches_some : forall ct o e stripped gt ex merged rex,
  batch_extract ct o e stripped gt ex = Ok (merged, rex) ->
  table_ok ct -> 1 <= z_max_strings_in_group o ->
  batch_oracle_okb ct o e stripped gt ex = true ->
  forall fs, In fs merged -> exists s, In s (ex_strings ex) /\ matches_frags ct false e fs s.
Proof. exact batch_each_matches_some. Qed.
Print Assumptions C13_each_matches_some.

Example C13_capture_group_example : capture_group [40; 97; 41] = [40; 97; 41] /\ capture_group [97] = [40; 97; 41].
Proof. split; reflexivity. Qed.

(* at the level of the TEXT (Rexpy/Regex.v): every expression of one batch extraction compiles (parses in the modelled
   fragment of the syntax) and matches one of the working examples - for every set of extra letters *)
Theorem C13_text_each_matches_some : forall ct o e stripped gt ex merged rex,
  batch_extract ct o e stripped gt ex = Ok (merged, rex) ->
  table_ok ct -> 1 <= z_max_strings_in_group o ->
  batch_oracle_okb ct o e stripped gt ex = true ->
  batch_renderable ct o e stripped gt ex = true ->
  forall text, In text rex -> exists s, In s (ex_strings ex) /\ re_model_fullmatch ct text s = Some true.
Proof. intros ct o e stripped gt ex merged rex Hb Ht Hc Ho Hr. exact (proj2 (batch_internal_texts_cover _ _ _ _ _ _ _ _ Hb Ht Hc Ho Hr)). Qed.
Print Assumptions C13_text_each_matches_some.

(* tagging changes only the grouping: the tagged and the untagged text of a pattern accept the same strings *)
Theorem C13_tag_same_language : forall out ct e full frags t0 t1 s,
  In e extras8 -> forallb (frag_renderable e) frags = true ->
  vrle2re out full e false false frags = Ok t0 ->
  vrle2re out full e false true frags = Ok t1 ->
  re_model_fullmatch ct t0 s = re_model_fullmatch ct t1 s.
Proof. exact tag_same_language. Qed.
Print Assumptions C13_tag_same_language.

(* under the portable and grep dialects the patterns are rendered again for output ([0-9] for the digit class):
   each returned text still matches one of the working examples when their decimal digits are ASCII
   (without that: Props/C03.v C03_portable_refuted, the known finding c13-portable-digits) *)
Theorem C13_portable_each_matches_some : forall ct o e stripped gt ex merged rex prex,
  batch_extract ct o e stripped gt ex = Ok (merged, rex) ->
  table_ok ct -> 1 <= z_max_strings_in_group o ->
  batch_oracle_okb ct o e stripped gt ex = true ->
  batch_renderable ct o e stripped gt ex = true ->
  mapM (vrle2re true (o_full_escape o) e stripped (o_tag o)) merged = Ok prex ->
  (forall s, In s (ex_strings ex) -> ascii_decimals ct s) ->
  forall text, In text prex -> exists s, In s (ex_strings ex) /\ re_model_fullmatch ct text s = Some true.
Proof.
  intros ct o e stripped gt ex merged rex prex Hb Ht Hc Ho Hr Hp Ha.
  exact (proj2 (batch_portable_texts_cover _ _ _ _ _ _ _ _ _ Hb Ht Hc Ho Hr Hp Ha)).
Qed.
Print Assumptions C13_portable_each_matches_some.

(* max_patterns / min_strings_per_pattern (Extractor.find_bad_patterns; run_extractor keeps exactly the expressions whose
   index passes this filter, in their order).  For every list of counts: pruning only removes; with min_strings_per_pattern
   above 1 every kept expression counts at least that many strings - and, when max_patterns is not set, the kept ones are
   EXACTLY those that do; with max_patterns = M at most M expressions remain. *)
Theorem C13_pruning_only_removes : forall o freqs i, In i (kept o freqs) -> (i < length freqs)%nat.
Proof. intros o freqs i H. apply kept_In in H. apply H. Qed.
Print Assumptions C13_pruning_only_removes.

Theorem C13_pruning_min_strings : forall o freqs i,
  1 < o_min_strings o -> In i (kept o freqs) -> o_min_strings o <= nth i freqs 0.
Proof.
  intros o freqs i Hm H. apply kept_In in H as [Hi Hb]. apply Z.nlt_ge. intro Hlt. apply Hb.
  unfold find_bad_patterns. apply in_or_app. right.
  apply Z.ltb_lt in Hm. rewrite Hm. apply too_few_In. split; assumption.
Qed.
Print Assumptions C13_pruning_min_strings.

Theorem C13_pruning_min_strings_exact : forall o freqs i,
  o_max_patterns o = None -> (i < length freqs)%nat ->
  (In i (kept o freqs) <-> (o_min_strings o <= 1 \/ o_min_strings o <= nth i freqs 0)).
Proof. exact kept_min_strings_exact. Qed.
Print Assumptions C13_pruning_min_strings_exact.

Theorem C13_pruning_max_patterns : forall o freqs M,
  o_max_patterns o = Some M -> 0 <= M -> (length (kept o freqs) <= Z.to_nat M)%nat.
Proof. intros o freqs M HM _. exact (kept_max_patterns o freqs M HM). Qed.
Print Assumptions C13_pruning_max_patterns.

(* the counts handed to the pruning are one per expression (that run_extractor's filter is this `kept` is
   PruneProofs.keep_is_kept) *)
Theorem C13_pruning_counts_per_expression : forall mt rexes all fails re_freqs,
  rexes <> [] -> find_non_matches mt rexes all = Ok (fails, re_freqs) -> length re_freqs = length rexes.
Proof. exact find_non_matches_freqs_length. Qed.
Print Assumptions C13_pruning_counts_per_expression.
