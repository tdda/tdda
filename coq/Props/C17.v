(* C17 - the command line gives the same constraints and verdicts as the library: the flag layer. *)
From Coq Require Import ZArith List Bool.
From Tdda Require Import Constraints.Cli Constraints.Model Constraints.Detect Constraints.ClosureDetect.
Import ListNotations.

Theorem C17_contradictory_options_exit : forall f,
  detect_params f = None <->
  (df_per_constraint f = true /\ df_no_per_constraint f = true) \/
  (nonempty_fields (df_output_fields f) = true /\ df_no_output_fields f = true).
Proof.
  intro f. unfold detect_params.
  destruct (df_per_constraint f && df_no_per_constraint f) eqn:E1;
    [split; [left; apply andb_true_iff, E1|reflexivity]|].
  destruct (nonempty_fields (df_output_fields f) && df_no_output_fields f) eqn:E2;
    [split; [right; apply andb_true_iff, E2|reflexivity]|].
  split; [discriminate|]. intros [H|H]; apply andb_true_iff in H; congruence.
Qed.
Print Assumptions C17_contradictory_options_exit.

Theorem C17_detect_translation : forall f p, detect_params f = Some p ->
  dp_per_constraint p = negb (df_no_per_constraint f) /\
  dp_write_all p = df_write_all f /\ dp_index p = df_index f /\ dp_ints p = df_ints f /\
  dp_interleave p = df_interleave f /\ dp_ascii p = df_ascii f /\ dp_tc p = df_tc f /\ dp_eps p = df_eps f /\
  dp_output_fields p = match df_output_fields f with
                       | Some l => Some l
                       | None => if df_no_output_fields f then None else Some []
                       end.
Proof.
  intros f p. unfold detect_params. destruct (_ && _); [discriminate|]. destruct (_ && _); [discriminate|].
  intros [= <-]. repeat split.
Qed.
Print Assumptions C17_detect_translation.

Theorem C17_verify_translation : forall f p, verify_params f = Some p ->
  vp_report p = (if vf_all f then RAll else if vf_fields f then RFields else RAll) /\
  vp_ascii p = vf_ascii f /\ vp_tc p = vf_tc f /\ vp_eps p = vf_eps f.
Proof. intros f p. unfold verify_params. destruct (_ && _); [discriminate|]. intros [= <-]. repeat split. Qed.
Print Assumptions C17_verify_translation.

(* --all with --fields, and --rex with --norex, contradict each other: exit status 1, and only then *)
Theorem C17_verify_contradiction : forall f, verify_params f = None <-> (vf_all f = true /\ vf_fields f = true).
Proof.
  intro f. unfold verify_params. rewrite <- andb_true_iff. destruct (vf_all f && vf_fields f); split; auto; discriminate.
Qed.
Print Assumptions C17_verify_contradiction.

Theorem C17_discover_contradiction : forall rex norex,
  (discover_params rex norex = None <-> (rex = true /\ norex = true)) /\
  (forall b, discover_params rex norex = Some b -> b = rex).
Proof.
  intros rex norex. unfold discover_params. rewrite <- andb_true_iff.
  destruct (rex && norex); (split; [split; auto; discriminate|]); intros b [= <-]; reflexivity.
Qed.
Print Assumptions C17_discover_contradiction.

(* "constraints discovered from a file verify against that file with no failures": whatever non-contradictory
   verify / detect flags are given (the type-checking flag selects strict or sloppy checking, absent = sloppy),
   verifying a table with the constraints discovered from its own columns counts no failure, and detection
   flags no record and writes no output file.  (The table is the frame the command line loaded: that the
   command line and the library see the same frame is what the subprocess correspondence checks.) *)
Definition params_of_tc (tc : option bool) : params :=
  {| p_strict := match tc with Some b => b | None => false end |}.

Theorem C17_discovered_verify_no_failures : forall f vp fields,
  verify_params f = Some vp -> Forall self_discovered fields ->
  v_failures (verify_dataset (params_of_tc (vp_tc vp)) (as_fields fields)) = 0%Z.
Proof. intros f vp fields _ H. exact (proj1 (closure_dataset_proof _ fields H)). Qed.
Print Assumptions C17_discovered_verify_no_failures.

Theorem C17_discovered_detect_no_records : forall tc fields nrows existed, Forall self_discovered fields ->
  d_failing (detect (params_of_tc tc) fields nrows) = 0%Z /\
  outfile_after existed (d_failing (detect (params_of_tc tc) fields nrows)) = false.
Proof.
  intros tc fields nrows existed H. destruct (closure_detect_proof (params_of_tc tc) fields nrows H) as (_ & _ & -> & _).
  split; reflexivity.
Qed.
Print Assumptions C17_discovered_detect_no_records.
