(* C01 - discovered constraints are satisfied by the data they came from. *)
From Coq Require Import ZArith List.
From Tdda Require Import Constraints.Model Constraints.ModelProofs Constraints.Detect Constraints.ClosureDetect.
Import ListNotations.
Open Scope Z_scope.

(* For every well-typed column (any length, any null pattern, any values), with strict or sloppy type
   checking and whatever epsilon: every constraint discovered from the column verifies on it.  The
   hypothesis on rex is property C03 (each example matched by a returned expression). *)
Theorem C01_closure : forall p c rex ks, well_typed c ->
  (forall oks, rex = Some oks -> forallb (fun b => b) oks = true) ->
  discover c rex = Some ks ->
  forall k, In k ks -> verify p (Some c) k = true.
Proof. exact closure_proof. Qed.
Print Assumptions C01_closure.

(* hence a whole verification of discovered constraints counts no failure for that field *)
Theorem C01_field_totals : forall p col ks,
  let r := verify_field p col ks in
  fr_failures r = count_false (map (verify p col) ks).
Proof. intros p col ks. rewrite verify_field_eq. reflexivity. Qed.
Print Assumptions C01_field_totals.

Example C01_inhabited :
  let c := {| c_type := TReal; c_cells := [Some VNegInf; None; Some (VNum 5); Some VPosInf] |} in
  match discover c None with
  | Some ks => forallb (verify {| p_strict := true |} (Some c)) ks = true /\ length ks = 4%nat
  | None => False
  end.
Proof. vm_compute. split; reflexivity. Qed.

(* ... and detection on it reports no failing records: for a whole dataset (any number of fields, any number
   of records) whose constraints are those discovered from its own columns, no flag column is produced, every
   record has n_failures = 0, no record fails and all of them pass; so no output file is written. *)
Theorem C01_detect_no_failing_records : forall p fields nrows, Forall self_discovered fields ->
  let d := detect p fields nrows in
  d_columns d = [] /\ d_nfailures d = repeat 0 nrows /\ d_failing d = 0 /\ d_passing d = Z.of_nat nrows.
Proof. exact closure_detect_proof. Qed.
Print Assumptions C01_detect_no_failing_records.

Theorem C01_detect_writes_no_file : forall p fields nrows existed, Forall self_discovered fields ->
  outfile_after existed (d_failing (detect p fields nrows)) = false.
Proof.
  intros p fields nrows existed H. destruct (closure_detect_proof p fields nrows H) as (_ & _ & -> & _). reflexivity.
Qed.
Print Assumptions C01_detect_writes_no_file.

(* whole-dataset verification (any number of fields): no failure is counted, overall or in any field, and
   every discovered constraint is counted as a pass *)
Theorem C01_dataset_no_failures : forall p fields, Forall self_discovered fields ->
  let v := verify_dataset p (as_fields fields) in
  v_failures v = 0 /\
  v_passes v = Z.of_nat (length (flat_map (@snd column (list constr)) fields)) /\
  forall r, In r (v_fields v) -> fr_failures r = 0.
Proof. exact closure_dataset_proof. Qed.
Print Assumptions C01_dataset_no_failures.

(* the hypothesis is met by a concrete column (with nulls and both infinities) *)
Example C01_self_discovered_inhabited :
  let c := {| c_type := TReal; c_cells := [Some VNegInf; None; Some (VNum 5); Some VPosInf] |} in
  exists ks, self_discovered (c, ks) /\ length ks = 4%nat.
Proof.
  eexists. split; [split; [split|exists None; split; [discriminate|vm_compute; reflexivity]]|reflexivity].
  - intros u v Hu Hv. cbn in Hu, Hv.
    repeat match goal with H : _ \/ _ |- _ => destruct H as [<-|H] end; try reflexivity; contradiction.
  - intros _ v Hv. cbn in Hv.
    repeat match goal with H : _ \/ _ |- _ => destruct H as [<-|H] end; try reflexivity; contradiction.
Qed.
