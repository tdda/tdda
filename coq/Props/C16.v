(* C16 - CSVW date/time formats are translated to the parsing format that names the
   same fields in the same order with the same separators.  The lemmas about rendered formats and the replacement
   chain are in Serial/DateFmtProofs.v. *)
From Coq Require Import ZArith List Bool.
From Tdda Require Import Base.Str Generated.Consts Serial.DateFmt Serial.DateFmtProofs.
Import ListNotations.
Open Scope Z_scope.

(* T: the replacement chain the theorems are about is the one in the source *)
Theorem C16_chain_pinned :
  map fst csvw_replace_chain =
  [[100;100]; [100]; [77;77]; [77]; [121;121;121;121]; [121;121]; [72;72]; [109;109];
   [83;83;83]; [83;83]; [83]; [115;115]] /\
  re_iso8601_source =
  [94;37;89;45;37;109;45;37;100;40;91;84;32;93;37;72;58;37;77;58;37;83;40;92;46;37;102;41;63;41;63;36].
Proof. split; reflexivity. Qed.
Print Assumptions C16_chain_pinned.

(* Every format built from the documented fields d dd M MM yy yyyy HH mm ss S SS SSS joined
   by the separators - / . : space T - any number of fields, any order - is translated
   field by field (or to the ISO8601 marker when the field-wise translation is one of the
   ISO layouts). *)
Theorem C16_translate_correct : forall t rest,
  translate (render csvw_of t rest) =
  if mem_str (render strf_of t rest) iso_strings then s_ISO8601 else render strf_of t rest.
Proof.
  intros t rest. unfold translate.
  rewrite (render_without pct csvw_of) by (intros []; reflexivity || discriminate).
  rewrite (chain_render _ _ _ sep_blocks token_translates).
  destruct (render csvw_of t rest) eqn:E; [|rewrite orb_false_r; reflexivity].
  destruct (render_nonempty csvw_of t rest); [destruct t; discriminate|exact E].
Qed.
Print Assumptions C16_translate_correct.

(* no replacement pattern mentions a separator character *)
Theorem C16_separators_inert : forall s, chain_blocks csvw_replace_chain (sep_char s) = true.
Proof. exact sep_blocks. Qed.
Print Assumptions C16_separators_inert.

Theorem C16_passthrough : forall fmt, existsb (Z.eqb pct) fmt = true -> translate fmt = fmt.
Proof. intros fmt H. unfold translate. rewrite H. reflexivity. Qed.
Print Assumptions C16_passthrough.

(* non-vacuity / a concrete instance: dd/MM/yyyy HH:mm:ss.SSS *)
Example C16_example :
  translate (render csvw_of Tdd [(SSlash, TMM); (SSlash, Tyyyy); (SSpace, THH); (SColon, Tmm);
                                  (SColon, Tss); (SDot, TSSS)]) =
  [37;100;47;37;109;47;37;89;32;37;72;58;37;77;58;37;83;46;37;102].
Proof. vm_compute. reflexivity. Qed.
Example C16_example_iso :
  translate (render csvw_of Tyyyy [(SDash, TMM); (SDash, Tdd)]) = s_ISO8601.
Proof. vm_compute. reflexivity. Qed.
