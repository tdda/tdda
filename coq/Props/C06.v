(* C06 - detection flags exactly the violating records and agrees with verification. *)
From Coq Require Import ZArith List Bool.
From Tdda Require Import Base.ListFacts Constraints.Model Constraints.ModelProofs Constraints.Detect
  Constraints.DetectProofs Constraints.ClosureDetect.
Import ListNotations.
Open Scope Z_scope.

Theorem C06_flags_only_for_failures : forall p c k fl,
  flags_of p c k = Some fl -> verify p (Some c) k = false.
Proof.
  intros p c k fl H. apply not_true_is_false. intro E. apply flags_of_None_iff in E. congruence.
Qed.
Print Assumptions C06_flags_only_for_failures.

(* ... and every failing constraint has one (a constraint that cannot apply to a field of this type flags all
   its records) *)
Theorem C06_flags_for_every_failure : forall p c k,
  verify p (Some c) k = false -> flags_of p c k <> None.
Proof. intros p c k H E. apply flags_of_None_iff in E. congruence. Qed.
Print Assumptions C06_flags_for_every_failure.

Theorem C06_min_flag_false_iff : forall c b i,
  coarse_eqb (col_coarse c) (coarse_of (b_value b)) = true ->
  match detect_flags c (CMin (Some b)) with
  | Some fl => nth_error fl i = Some (Some false) <->
               exists v, nth_error (c_cells c) i = Some (Some v) /\ sat_min b v = false
  | None => False
  end.
Proof. intros c b i Hc. cbn [detect_flags]. rewrite Hc. apply per_cell_false_iff. Qed.
Print Assumptions C06_min_flag_false_iff.

Theorem C06_max_flag_false_iff : forall c b i,
  coarse_eqb (col_coarse c) (coarse_of (b_value b)) = true ->
  match detect_flags c (CMax (Some b)) with
  | Some fl => nth_error fl i = Some (Some false) <->
               exists v, nth_error (c_cells c) i = Some (Some v) /\ sat_max b v = false
  | None => False
  end.
Proof. intros c b i Hc. cbn [detect_flags]. rewrite Hc. apply per_cell_false_iff. Qed.
Print Assumptions C06_max_flag_false_iff.

Theorem C06_type_flags_all : forall c ts i, (i < length (c_cells c))%nat ->
  match detect_flags c (CType (Some ts)) with
  | Some fl => nth_error fl i = Some (Some false)
  | None => False
  end.
Proof. intros c ts i Hi. apply all_false_nth. exact Hi. Qed.
Print Assumptions C06_type_flags_all.

Theorem C06_max_nulls_flags : forall c n i,
  match detect_flags c (CMaxNulls (Some n)) with
  | Some fl => nth_error fl i = Some (Some false) <-> nth_error (c_cells c) i = Some None
  | None => False
  end.
Proof.
  intros c n i. cbn [detect_flags]. rewrite nth_error_map_Some. split.
  - intros ([v|] & E & H); [discriminate H|exact E].
  - intro E. exists None. auto.
Qed.
Print Assumptions C06_max_nulls_flags.

Theorem C06_no_duplicates_flags : forall c i,
  match detect_flags c (CNoDup (Some true)) with
  | Some fl => nth_error fl i = Some (Some false) <->
               exists v, nth_error (c_cells c) i = Some (Some v) /\ duplicated c v = true
  | None => False
  end.
Proof.
  intros c i. cbn [detect_flags]. rewrite (cell_flag_false_iff (Some true)) by discriminate.
  split; intros (v & E & H); exists v; (split; [exact E|]); apply negb_false_iff; exact H.
Qed.
Print Assumptions C06_no_duplicates_flags.

Theorem C06_null_flag_only_type_or_nulls : forall c k fl i,
  detect_flags c k = Some fl -> nth_error (c_cells c) i = Some None -> nth_error fl i = Some (Some false) ->
  (exists ts, k = CType (Some ts)) \/ (exists n, k = CMaxNulls (Some n)) \/ fl = all_false c.
Proof. exact null_flag_only_type_or_nulls_proof. Qed.
Print Assumptions C06_null_flag_only_type_or_nulls.

Theorem C06_nfail_is_count_false : forall cols n i, (i < n)%nat ->
  nth i (row_failures cols n) 0 = Z.of_nat (length (filter (is_false_at i) cols)).
Proof. exact nfail_is_count_false_proof. Qed.
Print Assumptions C06_nfail_is_count_false.

Theorem C06_partition : forall p fields nrows,
  let d := detect p fields nrows in
  d_passing d + d_failing d = Z.of_nat nrows /\ 0 <= d_failing d /\
  d_failing d <= Z.of_nat (length (d_nfailures d)).
Proof.
  intros p fields nrows. unfold detect. cbn [d_passing d_failing d_nfailures]. split; [apply Z.sub_add|].
  split; [apply Nat2Z.is_nonneg|]. apply inj_le, filter_length_le.
Qed.
Print Assumptions C06_partition.

Theorem C06_outfile_iff_failure : forall before failures, 0 <= failures ->
  (outfile_after before failures = true <-> failures > 0).
Proof.
  intros before failures _. unfold outfile_after. eapply iff_trans; [apply Z.ltb_lt|apply iff_sym, Z.gt_lt_iff].
Qed.
Print Assumptions C06_outfile_iff_failure.

Example C06_example :
  let c := {| c_type := TInt; c_cells := [Some (VNum 1); None; Some (VNum 5); Some (VNum 5)] |} in
  d_nfailures (detect {| p_strict := false |}
                      [(c, [CMax (Some {| b_value := VNum 3; b_fuzzed := VNum 3; b_prec := PClosed |});
                            CNoDup (Some true); CMaxNulls (Some 0)])] 4) = [0; 1; 2; 2].
Proof. vm_compute. reflexivity. Qed.

(* dataset level (any number of fields, constraints and records): detection produces no flag column exactly
   when verification of the same fields with the same constraints counts no failure *)
Theorem C06_detect_agrees_with_verify : forall p fields nrows,
  d_columns (detect p fields nrows) = [] <-> v_failures (verify_dataset p (as_fields fields)) = 0.
Proof.
  intros p fields nrows. eapply iff_trans; [apply detect_no_columns_iff|]. apply iff_sym.
  eapply iff_trans; [apply dataset_failures_zero_iff_proof|apply as_fields_pass].
Qed.
Print Assumptions C06_detect_agrees_with_verify.
